(* C14/C16: proofs about the models of server.PathToRID / RIDToPath with net/url PathEscape / PathUnescape
   (theories/Pure/HttpPath.v), and the link to codec.IsValidRID (theories/Pure/Rid.v). *)
From Coq Require Import String List Ascii NArith Bool Arith Lia.
From RG Require Pure.Rid Proofs.HeaderProofs.
From RG Require Import Pure.HttpPath.
Import ListNotations.

(* HttpPath and Rid both define is/dot/qm; they are convertible.  Only HttpPath is imported,
   everything from Rid is written qualified. *)

Lemma unescape_pct : forall h l s,
  unescape (pct :: h :: l :: s) =
  match hexval h, hexval l, unescape s with
  | Some a, Some b, Some r => Some (ascii_of_N (a * 16 + b) :: r)
  | _, _, _ => None
  end.
Proof. reflexivity. Qed.

Lemma unescape_nopct : forall c s, is c pct = false ->
  unescape (c :: s) = match unescape s with Some r => Some (c :: r) | None => None end.
Proof. intros c s H. cbn [unescape]. rewrite H. reflexivity. Qed.

(* the escape sequence of a byte decodes to that byte *)
Lemma esc_byte : forall c, unescape [pct; hexdigit (N_of_ascii c / 16); hexdigit (N_of_ascii c mod 16)] = Some [c].
Proof.
  assert (A : HeaderProofs.all_bytes (fun c => let n := N_of_ascii c in
                match unescape [pct; hexdigit (n / 16); hexdigit (n mod 16)] with Some [x] => Ascii.eqb x c | _ => false end) = true)
    by (vm_compute; reflexivity).
  intros c. pose proof (HeaderProofs.all_bytes_spec _ A c) as H. cbv beta zeta in H.
  destruct (unescape _) as [[|x [|]]|]; try discriminate H. apply Ascii.eqb_eq in H. rewrite H. reflexivity.
Qed.

(* the percent sign itself is escaped *)
Lemma noesc_notpct : forall c, should_escape c = false -> is c pct = false.
Proof.
  intros c H. destruct (is c pct) eqn:E; [|reflexivity]. apply Ascii.eqb_eq in E. rewrite E in H. discriminate H.
Qed.

Lemma escape_cons_esc : forall c s, should_escape c = true ->
  escape (c :: s) = pct :: hexdigit (N_of_ascii c / 16) :: hexdigit (N_of_ascii c mod 16) :: escape s.
Proof. intros c s H. cbn [escape]. rewrite H. reflexivity. Qed.

Lemma escape_cons_noesc : forall c s, should_escape c = false -> escape (c :: s) = c :: escape s.
Proof. intros c s H. cbn [escape]. rewrite H. reflexivity. Qed.

Lemma unescape_escape : forall s, unescape (escape s) = Some s.
Proof.
  induction s as [|c s IH].
  - reflexivity.
  - destruct (should_escape c) eqn:E.
    + pose proof (esc_byte c) as H. rewrite unescape_pct in H.
      rewrite (escape_cons_esc c s E), unescape_pct, IH.
      destruct (hexval _); [|discriminate H]. destruct (hexval _); [|discriminate H]. injection H as ->. reflexivity.
    + rewrite (escape_cons_noesc c s E), (unescape_nopct c _ (noesc_notpct c E)), IH. reflexivity.
Qed.

Definition dslash (c : ascii) : ascii := if is c dot then slash else c.

Lemma rid_to_path_cons : forall c l prefix,
  rid_to_path (c :: l) prefix = prefix ++ map dslash (escape (c :: l)).
Proof. reflexivity. Qed.

Lemma escape_app : forall a b, escape (a ++ b) = escape a ++ escape b.
Proof.
  induction a as [|c a IH]; intros b.
  - reflexivity.
  - cbn [List.app]. destruct (should_escape c) eqn:E.
    + rewrite !(escape_cons_esc c _ E), IH. reflexivity.
    + rewrite !(escape_cons_noesc c _ E), IH. reflexivity.
Qed.

Lemma escape_cons_app : forall c l, escape (c :: l) = escape [c] ++ escape l.
Proof. intros c l. apply (escape_app [c] l). Qed.

(* bytes that the dot->slash map leaves alone and at which the path is not split *)
Definition plain (x : ascii) : bool := negb (is x dot || is x slash).

Lemma plain_inv : forall x, plain x = true -> is x dot = false /\ is x slash = false.
Proof. intros x H. apply orb_false_iff, negb_true_iff, H. Qed.

(* a byte other than the dot escapes to plain text *)
Lemma nodot_byte : forall c, is c dot = false -> forallb plain (escape [c]) = true.
Proof.
  assert (A : HeaderProofs.all_bytes (fun c => is c dot || forallb plain (escape [c])) = true) by (vm_compute; reflexivity).
  intros c H. pose proof (HeaderProofs.all_bytes_spec _ A c) as Hc. cbv beta in Hc. rewrite H in Hc. exact Hc.
Qed.

Lemma map_dslash_plain : forall l, forallb plain l = true -> map dslash l = l.
Proof.
  induction l as [|x l IH]; intros H; [reflexivity|]. cbn [forallb] in H. apply andb_prop in H as [Hx Hl].
  apply plain_inv in Hx as [Hx _]. cbn [map]. unfold dslash at 1. rewrite Hx, (IH Hl). reflexivity.
Qed.

Lemma split_slash_app_plain : forall a r cur,
  forallb plain a = true -> split_slash (a ++ r) cur = split_slash r (rev a ++ cur).
Proof.
  induction a as [|x a IH]; intros r cur H.
  - reflexivity.
  - cbn [forallb] in H. apply andb_prop in H as [Hx Ha]. apply plain_inv in Hx as [_ Hx].
    cbn [List.app split_slash rev]. rewrite Hx, (IH r (x :: cur) Ha), <- app_assoc. reflexivity.
Qed.

Lemma split_dot_step : forall l cur,
  split_slash (map dslash (escape (dot :: l))) cur = rev cur :: split_slash (map dslash (escape l)) [].
Proof. reflexivity. Qed.

(* splitting the path text of any rid at the slashes and unescaping gives back its dot-separated parts;
   [tok] is the part under way *)
Lemma roundtrip_aux : forall l tok,
  exists parts, parts <> [] /\
    unescape_all (split_slash (map dslash (escape l)) (rev (escape tok))) = Some parts /\
    join_dot parts = tok ++ l.
Proof.
  induction l as [|c l IH]; intros tok.
  - exists [tok]. split; [discriminate|]. split.
    + cbn [escape map split_slash unescape_all]. rewrite rev_involutive, unescape_escape. reflexivity.
    + cbn [join_dot]. rewrite app_nil_r. reflexivity.
  - destruct (is c dot) eqn:Hd.
    + apply Ascii.eqb_eq in Hd. subst c.
      destruct (IH []) as (parts' & Hne & Hu & Hj). cbn [escape rev] in Hu.
      exists (tok :: parts'). split; [discriminate|]. split.
      * rewrite split_dot_step, rev_involutive. cbn [unescape_all].
        rewrite unescape_escape, Hu. reflexivity.
      * destruct parts' as [|p ps]; [contradiction|].
        cbn [join_dot]. cbn [join_dot List.app] in Hj. rewrite Hj. reflexivity.
    + pose proof (nodot_byte c Hd) as Hp.
      destruct (IH (tok ++ [c])) as (parts & Hne & Hu & Hj).
      exists parts. split; [exact Hne|]. split.
      * rewrite escape_cons_app, map_app, (map_dslash_plain _ Hp), (split_slash_app_plain _ _ _ Hp).
        rewrite <- rev_app_distr, <- escape_app. exact Hu.
      * rewrite Hj, <- app_assoc. reflexivity.
Qed.

Lemma has_prefix_app : forall p x, has_prefix (p ++ x) p = Some x.
Proof.
  induction p as [|c p IH]; intros x.
  - destruct x; reflexivity.
  - cbn [List.app has_prefix]. unfold is. rewrite Ascii.eqb_refl. apply IH.
Qed.

Lemma dslash_nodot : forall l, existsb (fun c => is c dot) (map dslash l) = false.
Proof.
  induction l as [|c l IH].
  - reflexivity.
  - cbn [map existsb]. rewrite IH, orb_false_r. unfold dslash.
    destruct (is c dot) eqn:E; [reflexivity|exact E].
Qed.

(* the round trip needs of the rid only that it does not begin with a dot, which would be taken for the one slash that
   PathToRID drops after the prefix *)
Lemma nodot_path_roundtrip : forall c l prefix, is c dot = false ->
  path_to_rid (rid_to_path (c :: l) prefix) [] prefix = c :: l.
Proof.
  intros c l prefix Hd.
  destruct (roundtrip_aux (c :: l) []) as (parts & _ & Hu & Hj).
  change (rev (escape [])) with (@nil ascii) in Hu. cbn [List.app] in Hj.
  pose proof (nodot_byte c Hd) as Hp.
  rewrite rid_to_path_cons. unfold path_to_rid, path_parts.
  rewrite has_prefix_app, dslash_nodot.
  revert Hu. rewrite escape_cons_app, map_app, (map_dslash_plain _ Hp).
  assert (Hne : escape [c] <> []) by (cbn [escape]; destruct (should_escape c); discriminate).
  destruct (escape [c]) as [|x r]; [contradiction|]. intros Hu.
  cbn [forallb] in Hp. apply andb_prop in Hp as [Hx _]. apply plain_inv in Hx as [_ Hx].
  cbn [List.app] in *. rewrite Hx, Hu.
  rewrite (proj2 (Nat.eqb_neq _ _)) by (rewrite app_length; cbn [length]; lia). exact Hj.
Qed.

Theorem rid_path_roundtrip : forall rid prefix,
  Rid.is_valid_rid rid false = true ->
  path_to_rid (rid_to_path rid prefix) [] prefix = rid.
Proof.
  intros rid prefix H. unfold Rid.is_valid_rid in H.
  destruct rid as [|c l]; [discriminate H|]. apply nodot_path_roundtrip.
  cbn [Rid.vrid] in H. change (Rid.is c Rid.dot) with (is c dot) in H.
  destruct (Rid.is c Rid.qm); [discriminate H|]. destruct (Rid.bad c); [discriminate H|].
  destruct (is c dot); [discriminate H|reflexivity].
Qed.

(* validation happens after unescaping, so an accepted path yields a clean subject *)
Theorem path_rid_subject_clean : forall path query prefix,
  Rid.is_valid_rid (path_to_rid path query prefix) true = true ->
  Rid.clean (Rid.name_of (path_to_rid path query prefix)).
Proof.
  intros path query prefix. apply Rid.valid_rid_subject_clean.
Qed.

Theorem path_rid_action_subject_clean : forall path query prefix,
  Rid.is_valid_rid (fst (path_to_rid_action path query prefix)) true = true ->
  Rid.clean (Rid.name_of (fst (path_to_rid_action path query prefix))).
Proof.
  intros path query prefix. apply Rid.valid_rid_subject_clean.
Qed.

Definition s2l (s : string) := list_ascii_of_string s.

Example p_plain : path_to_rid (s2l "/api/a/b") [] (s2l "/api/") = s2l "a.b".
Proof. reflexivity. Qed.
(* a percent-encoded dot is decoded AFTER the literal-dot check and the slash split: it becomes a real dot in
   the rid (so "/api/a%2Eb" and "/api/a/b" name the same resource); IsValidRID then runs on the decoded text *)
Example p_encoded_dot : path_to_rid (s2l "/api/a%2Eb") [] (s2l "/api/") = s2l "a.b".
Proof. reflexivity. Qed.
Example p_literal_dot : path_to_rid (s2l "/api/a.b") [] (s2l "/api/") = [].
Proof. reflexivity. Qed.
Example p_bad_escape : path_to_rid (s2l "/api/a%2") [] (s2l "/api/") = [].
Proof. reflexivity. Qed.
(* encoded wildcards are decoded; rejecting them is left to IsValidRID (path_rid_subject_clean) *)
Example p_encoded_wild : path_to_rid (s2l "/api/a%2a/%3E") [] (s2l "/api/") = s2l "a*.>".
Proof. reflexivity. Qed.
Example p_encoded_wild_invalid : Rid.is_valid_rid (path_to_rid (s2l "/api/a%2a/%3E") [] (s2l "/api/")) true = false.
Proof. reflexivity. Qed.
Example p_double_slash : path_to_rid (s2l "/api//a") [] (s2l "/api") = s2l ".a".
Proof. reflexivity. Qed.
Example p_trailing_slash : path_to_rid (s2l "/api/a/") [] (s2l "/api/") = s2l "a.".
Proof. reflexivity. Qed.
Example p_query : path_to_rid (s2l "/api/a/b") (s2l "q=1") (s2l "/api/") = s2l "a.b?q=1".
Proof. reflexivity. Qed.
Example p_only_prefix : path_to_rid (s2l "/api/") [] (s2l "/api/") = [].
Proof. reflexivity. Qed.
Example r_slash : rid_to_path (s2l "a.b/c") (s2l "/api/") = s2l "/api/a/b%2Fc".
Proof. reflexivity. Qed.
Example r_roundtrip : path_to_rid (rid_to_path (s2l "a.b/c") (s2l "/api/")) [] (s2l "/api/") = s2l "a.b/c".
Proof. reflexivity. Qed.
Example p_action : path_to_rid_action (s2l "/api/a/b/m") [] (s2l "/api/") = (s2l "a.b", s2l "m").
Proof. reflexivity. Qed.

Print Assumptions unescape_escape.
Print Assumptions rid_path_roundtrip.
Print Assumptions path_rid_subject_clean.
Print Assumptions path_rid_action_subject_clean.
