(* Proofs about Pure/Origin.v: config.matchesOrigins / toLowerASCII, byte level. *)
From Coq Require Import List Ascii NArith Bool Arith String.
From RG Require Import Pure.Origin.
Import ListNotations.

Definition is_lower (s : list ascii) : Prop := to_lower s = s.

Lemma lower_idem : forall c, lower (lower c) = lower c.
Proof.
  intros c. unfold lower at 2 3. set (n := N_of_ascii c).
  destruct ((65 <=? n) && (n <=? 90))%N eqn:E; [|unfold lower; fold n; rewrite E; reflexivity].
  (* an upper-case letter goes to 97..122, where lower changes nothing *)
  apply andb_prop in E as [E1 E2]. apply N.leb_le in E1, E2.
  unfold lower. rewrite N_ascii_embedding.
  - replace (n + 32 <=? 90)%N with false; [rewrite andb_false_r; reflexivity|].
    symmetry. apply N.leb_gt, N.lt_le_trans with (65 + 32)%N; [reflexivity|apply N.add_le_mono_r, E1].
  - apply N.le_lt_trans with (90 + 32)%N; [apply N.add_le_mono_r, E2|reflexivity].
Qed.

Lemma to_lower_idem : forall s, to_lower (to_lower s) = to_lower s.
Proof. intros s. unfold to_lower. rewrite map_map. apply map_ext, lower_idem. Qed.

Lemma to_lower_is_lower : forall s, is_lower (to_lower s).
Proof. exact to_lower_idem. Qed.

(* one allow-list entry, already lower-case, against an arbitrary byte string *)
Lemma match_one_spec : forall s t, is_lower s -> (match_one s t = true <-> s = to_lower t).
Proof.
  unfold is_lower, to_lower.
  induction s as [|c s IH]; intros [|d t] Hl; cbn [match_one map]; split; intros H;
    try reflexivity; try discriminate H; injection Hl as Hc Hs.
  - apply andb_true_iff in H as [H1 H2]. apply (IH t Hs) in H2.
    apply orb_true_iff in H1 as [H1|H1]; apply Ascii.eqb_eq in H1; congruence.
  - injection H as -> H2. rewrite Ascii.eqb_refl, orb_true_r. apply (IH t Hs), H2.
Qed.

Theorem origin_match_spec : forall os o, Forall is_lower os ->
  (matches_origins os o = true <-> In (to_lower o) os).
Proof.
  intros os o Hos. unfold matches_origins. rewrite existsb_exists.
  rewrite Forall_forall in Hos. split.
  - intros [s [Hin Hm]]. apply match_one_spec in Hm; [|apply Hos; exact Hin].
    subst s. exact Hin.
  - intros Hin. exists (to_lower o). split; [exact Hin|].
    apply match_one_spec; [apply Hos; exact Hin | reflexivity].
Qed.

(* the decision only depends on the origin up to ASCII case *)
Corollary origin_match_case_insensitive : forall os o1 o2, Forall is_lower os ->
  to_lower o1 = to_lower o2 -> matches_origins os o1 = matches_origins os o2.
Proof.
  intros os o1 o2 Hos Heq. apply eq_true_iff_eq. rewrite !origin_match_spec, Heq by exact Hos. reflexivity.
Qed.

(* an accepted origin has the length of some listed origin *)
Corollary origin_match_length : forall os o, Forall is_lower os ->
  matches_origins os o = true -> exists s, In s os /\ List.length s = List.length o.
Proof.
  intros os o Hos Hm. apply (origin_match_spec os o Hos) in Hm.
  exists (to_lower o). split; [exact Hm | apply map_length].
Qed.

Definition l (s : string) : list ascii := list_ascii_of_string s.

Example ex_allow_is_lower : Forall is_lower [l "http://a.com"].
Proof. constructor; [vm_compute; reflexivity | constructor]. Qed.

Example ex_upper_accepted : matches_origins [l "http://a.com"] (l "HTTP://A.COM") = true.
Proof. vm_compute. reflexivity. Qed.

Example ex_prefix_rejected : matches_origins [l "http://a.com"] (l "http://a.co") = false.
Proof. vm_compute. reflexivity. Qed.

Example ex_longer_rejected : matches_origins [l "http://a.com"] (l "http://a.com.evil") = false.
Proof. vm_compute. reflexivity. Qed.

(* the hypothesis of origin_match_spec matters: an upper-case allow-list entry only matches itself *)
Example ex_upper_entry : matches_origins [l "HTTP://A.COM"] (l "http://a.com") = false
                         /\ matches_origins [l "HTTP://A.COM"] (l "HTTP://A.COM") = true.
Proof. vm_compute. split; reflexivity. Qed.

Print Assumptions lower_idem.
Print Assumptions to_lower_idem.
Print Assumptions match_one_spec.
Print Assumptions origin_match_spec.
Print Assumptions origin_match_case_insensitive.
Print Assumptions origin_match_length.
