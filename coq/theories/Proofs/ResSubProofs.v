(* C15 / C12: properties of the cache-side model of one resource (Comp/ResSub.v). *)
From Coq Require Import List Arith ZArith Bool Lia.
From RG Require Import Base.Value Pure.Lcs Pure.LcsTab Pure.ModelDiff Comp.ResSub.
Import ListNotations.

(* events that are malformed or inapplicable to the cached resource *)
Definition inapplicable (r : rs) (e : sev) : bool :=
  match e, cont r with
  | EChangeBad, _ | EAddBad, _ | ERemoveBad, _ => true
  | EChange _, CColl _ => true
  | EAdd _ _, CModel _ => true
  | ERemove _, CModel _ => true
  | EAdd idx v, CColl vs => negb (is_proper v) || (idx <? 0)%Z || (Z.of_nat (length vs) <? idx)%Z
  | ERemove idx, CColl vs => (idx <? 0)%Z || (Z.of_nat (length vs) <=? idx)%Z
  | _, _ => false
  end.

(* such an event only writes a log line, and not even that while a reset is under way *)
Lemma inapplicable_logged : forall r e,
  inapplicable r e = true -> handle_event r e = (if resetting r then r else log_err r, []).
Proof.
  intros r e H. unfold inapplicable in H. unfold handle_event.
  destruct (resetting r), e; try reflexivity; destruct (cont r) as [m|vs]; try discriminate H; try reflexivity.
  - destruct (is_proper v); cbn [negb orb] in H |- *; [rewrite H|]; reflexivity.
  - rewrite H. reflexivity.
Qed.

(* C15: a malformed or inapplicable service event is discarded as a whole: the cached content and its version are
   unchanged, nothing is handed to any subscriber, the use count is untouched; only a log line may be written *)
Theorem inapplicable_discarded : forall r e,
  inapplicable r e = true ->
  let '(r', out) := handle_event r e in
  cont r' = cont r /\ version r' = version r /\ out = [] /\ nsubs r' = nsubs r /\ count r' = count r /\ resetting r' = resetting r.
Proof. intros r e H. rewrite (inapplicable_logged r e H). destruct (resetting r) eqn:E; repeat split; auto. Qed.

(* ... and the next valid event applies normally, because the state it sees is the state before the bad one *)
Corollary valid_after_inapplicable : forall r e,
  inapplicable r e = true ->
  let r1 := fst (handle_event r e) in
  cont r1 = cont r /\ version r1 = version r /\ resetting r1 = resetting r /\ nsubs r1 = nsubs r.
Proof. intros r e H. pose proof (inapplicable_discarded r e H) as D. destruct (handle_event r e). cbn [fst]. tauto. Qed.

(* the version counts exactly the update events handed out: every emitted change/add/remove is stamped with the
   version before it and bumps the version by one *)
Theorem update_bumps_version : forall r e r' o,
  handle_event r e = (r', [o]) ->
  match o with
  | OChange v _ | OAdd v _ _ | ORemove v _ _ => v = version r /\ version r' = S (version r)
  | ODelete v | OCustom v _ | OReaccess v => v = version r /\ version r' = version r
  end.
Proof.
  intros r e r' o H. unfold handle_event, emit in H.
  (* split on every scrutinee of handle_event; what is left are the branches that hand out one event *)
  repeat match type of H with
         | context [match ?x with _ => _ end] => destruct x; try discriminate H
         end.
  all: injection H as <- <-; cbn [version set_cont]; auto.
Qed.
