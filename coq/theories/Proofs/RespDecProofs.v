(* Theorems about the response decoder model Pure/RespDec.v. *)
From Coq Require Import List Ascii String Bool Arith.
From RG Require Import Pure.Rid Pure.ValueDec Pure.RespDec.
Import ListNotations.

(* What an accepted get answer, or an error passed on, says of the payload. *)
Lemma decode_get_inv p :
  match decode_get p with
  | GModel n =>
      gp_syntax_ok p = true /\ gp_error p = None /\
      exists m, gp_result p = Some {| g_model := Some m; g_coll := None |} /\ List.length m = n /\
                forall v, In v m -> proper v = true
  | GColl n =>
      gp_syntax_ok p = true /\ gp_error p = None /\
      exists c, gp_result p = Some {| g_model := None; g_coll := Some c |} /\ List.length c = n /\
                forall v, In v c -> proper v = true
  | GService e =>
      gp_syntax_ok p = true /\ gp_error p = Some e /\
      match gp_result p with Some r => existsb rejected (values_of r) | None => false end = false
  | _ => True
  end.
Proof.
  unfold decode_get. destruct (gp_syntax_ok p); [cbn [negb]|exact I].
  destruct (match gp_result p with Some r => existsb rejected (values_of r) | None => false end); [exact I|].
  destruct (gp_error p); [repeat split|].
  destruct (gp_result p) as [[[m|] [c|]]|]; try exact I; cbn [g_model g_coll].
  - destruct (forallb proper m) eqn:F; [|exact I]. repeat split. exists m. repeat split. apply forallb_forall, F.
  - destruct (forallb proper c) eqn:F; [|exact I]. repeat split. exists c. repeat split. apply forallb_forall, F.
Qed.

(* A get answer is accepted as a model only if it is well-formed, carries no error, has a result with a
   model and NO collection, and every value is proper (no delete action, nothing the value decoder rejects). *)
Theorem get_model_sound : forall p n,
  decode_get p = GModel n ->
  gp_syntax_ok p = true /\ gp_error p = None /\
  exists m, gp_result p = Some {| g_model := Some m; g_coll := None |} /\ List.length m = n /\
            forall v, In v m -> proper v = true.
Proof. intros p n H. pose proof (decode_get_inv p) as I. rewrite H in I. exact I. Qed.

Theorem get_coll_sound : forall p n,
  decode_get p = GColl n ->
  gp_syntax_ok p = true /\ gp_error p = None /\
  exists c, gp_result p = Some {| g_model := None; g_coll := Some c |} /\ List.length c = n /\
            forall v, In v c -> proper v = true.
Proof. intros p n H. pose proof (decode_get_inv p) as I. rewrite H in I. exact I. Qed.

(* Completeness: a well-formed answer without error whose result has exactly a model of proper values is accepted. *)
Theorem get_model_complete : forall m,
  (forall v, In v m -> proper v = true) ->
  decode_get {| gp_syntax_ok := true; gp_error := None; gp_result := Some {| g_model := Some m; g_coll := None |} |} = GModel (List.length m).
Proof.
  intros m H. unfold decode_get, values_of. cbn [gp_syntax_ok negb gp_result gp_error g_model g_coll].
  rewrite app_nil_r. replace (forallb proper m) with true by (symmetry; apply forallb_forall, H).
  replace (existsb rejected m) with false; [reflexivity|].
  (* a proper value is not one the value decoder rejects *)
  symmetry. apply not_true_is_false. intros X. apply existsb_exists in X as (v & Hv & Hr).
  specialize (H v Hv). destruct v; discriminate.
Qed.

(* A well-formed answer carrying an error yields that error whatever else it carries. *)
Theorem get_error_wins : forall p e,
  decode_get p = GService e <-> (gp_syntax_ok p = true /\ gp_error p = Some e /\
     match gp_result p with Some r => existsb rejected (values_of r) | None => false end = false).
Proof.
  intros p e. split.
  - intros H. pose proof (decode_get_inv p) as I. rewrite H in I. exact I.
  - intros (S & E & R). unfold decode_get. rewrite S, R, E. reflexivity.
Qed.

(* What a resource or result outcome of a call / auth / new answer says of the payload. *)
Lemma decode_call_inv p :
  match decode_call p with
  | CResource r => cp_syntax_ok p = true /\ cp_error p = None /\ cp_resource p = Some r /\ is_valid_rid r true = true
  | CResult id => cp_syntax_ok p = true /\ cp_error p = None /\ cp_resource p = None /\ cp_result p = Some id
  | _ => True
  end.
Proof.
  unfold decode_call. destruct (cp_syntax_ok p); [cbn [negb]|exact I].
  destruct (cp_error p); [exact I|]. destruct (cp_resource p) as [r|].
  - destruct (is_valid_rid r true) eqn:V; [repeat split; exact V|exact I].
  - destruct (cp_result p); [repeat split|exact I].
Qed.

(* call / auth / new: a resource response is produced only for a valid rid and no error; the four outcomes
   are decided in the order error, resource, result. *)
Theorem call_resource_sound : forall p r,
  decode_call p = CResource r ->
  cp_syntax_ok p = true /\ cp_error p = None /\ cp_resource p = Some r /\ is_valid_rid r true = true.
Proof. intros p r H. pose proof (decode_call_inv p) as I. rewrite H in I. exact I. Qed.

Theorem call_result_sound : forall p id,
  decode_call p = CResult id ->
  cp_syntax_ok p = true /\ cp_error p = None /\ cp_resource p = None /\ cp_result p = Some id.
Proof. intros p id H. pose proof (decode_call_inv p) as I. rewrite H in I. exact I. Qed.

Theorem call_error_wins : forall p e,
  cp_syntax_ok p = true -> cp_error p = Some e -> decode_call p = CService e.
Proof. intros p e S E. unfold decode_call. rewrite S, E. reflexivity. Qed.

Example ex_get_both : decode_get {| gp_syntax_ok := true; gp_error := None;
    gp_result := Some {| g_model := Some []; g_coll := Some [] |} |} = GInvalid.
Proof. reflexivity. Qed.
Example ex_get_delete : decode_get {| gp_syntax_ok := true; gp_error := None;
    gp_result := Some {| g_model := Some [OPrimTop; ODelete]; g_coll := None |} |} = GInvalid.
Proof. reflexivity. Qed.
Example ex_get_ok : decode_get {| gp_syntax_ok := true; gp_error := None;
    gp_result := Some {| g_model := None; g_coll := Some [OPrimTop; ORef (s2l "a.b")] |} |} = GColl 2.
Proof. reflexivity. Qed.
