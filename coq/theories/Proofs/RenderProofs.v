(* C16 proofs: the two HTTP API encoders print exactly their expansion trees, and terminate (fuel-stable)
   on every finite graph, cyclic or not. *)
From Coq Require Import String.
From Coq Require Import List Ascii Arith Bool Lia.
From RG Require Import Pure.Render.
Import ListNotations.
Open Scope list_scope.

(* One level of either encoder: the content of a resource, given the rendering [h] of the
   resources it refers to; the two encoders differ only in [h] and in what they put around the content *)
Definition val (h : node -> str) (v : hval) : str :=
  match v with
  | HRef r' => h r'
  | HSoft hr => s "{""href"":"%string ++ hr ++ s "}"%string
  | HData i => i
  | HPrim raw => raw
  end.

Definition body (h : node -> str) (x : hres) : str :=
  match x with
  | HErr e => e
  | HColl vs => s "["%string ++ join (s ","%string) (map (val h) vs) ++ s "]"%string
  | HModel kvs => s "{"%string ++
                  join (s ","%string) (map (fun kv => fst kv ++ s ":"%string ++ val h (snd kv)) kvs) ++
                  s "}"%string
  end.

Definition tag (x : hres) : str :=
  match x with
  | HErr _ => s ",""error"":"%string
  | HColl _ => s ",""collection"":"%string
  | HModel _ => s ",""model"":"%string
  end.

Lemma enc_S : forall g f path r wrap,
  enc g (S f) path r wrap =
    (if wrap then s "{""href"":"%string ++ href g r else []) ++
    (if mem r path then []
     else (if wrap then tag (res g r) else []) ++ body (fun r' => enc g f (r :: path) r' true) (res g r)) ++
    (if wrap then s "}"%string else []).
Proof. intros g f path r wrap. cbn [enc]. destruct (res g r); reflexivity. Qed.

Lemma encflat_S : forall g f path r,
  encflat g (S f) path r =
    if mem r path then s "{""href"":"%string ++ href g r ++ s "}"%string
    else body (encflat g f (r :: path)) (res g r).
Proof. reflexivity. Qed.

Definition jval (h : node -> json) (v : hval) : json :=
  match v with
  | HRef r' => h r'
  | HSoft hr => href_obj hr
  | HData i => JRaw i
  | HPrim raw => JRaw raw
  end.

Definition tree (h : node -> json) (x : hres) : json :=
  match x with
  | HErr e => JRaw e
  | HColl vs => JArr (map (jval h) vs)
  | HModel kvs => JObj (map (fun kv => (fst kv, jval h (snd kv))) kvs)
  end.

Definition key (x : hres) : str :=
  match x with
  | HErr _ => s """error"""%string
  | HColl _ => s """collection"""%string
  | HModel _ => s """model"""%string
  end.

Lemma expand_S : forall g f path r wrap,
  expand g (S f) path r wrap =
    let t := tree (fun r' => expand g f (r :: path) r' true) (res g r) in
    if wrap then JObj ((s """href"""%string, JRaw (href g r)) ::
                       if mem r path then [] else [(key (res g r), t)])
    else if mem r path then JRaw [] else t.
Proof.
  intros g f path r wrap. cbn [expand]. destruct (mem r path); [reflexivity |]. destruct (res g r); reflexivity.
Qed.

Lemma expandflat_S : forall g f path r,
  expandflat g (S f) path r =
    if mem r path then href_obj (href g r) else tree (expandflat g f (r :: path)) (res g r).
Proof. reflexivity. Qed.

Lemma print_href_obj : forall h, print (href_obj h) = s "{""href"":"%string ++ h ++ s "}"%string.
Proof. reflexivity. Qed.

(* printing a tree gives the content, when printing the referenced trees gives [hs] *)
Lemma print_tree : forall hs hj x, (forall r', hs r' = print (hj r')) -> body hs x = print (tree hj x).
Proof.
  intros hs hj x H.
  assert (HV : forall v, val hs v = print (jval hj v)).
  { intros [raw | r' | hr | i]; [reflexivity | apply H | symmetry; apply print_href_obj | reflexivity]. }
  destruct x as [kvs | vs | e]; cbn [body tree print]; [| |reflexivity]; rewrite map_map.
  - erewrite map_ext; [reflexivity |]. intros kv. cbn [fst snd]. rewrite HV. reflexivity.
  - erewrite map_ext; [reflexivity | exact HV].
Qed.

Lemma tag_key : forall x, tag x = s ","%string ++ key x ++ s ":"%string.
Proof. intros x. destruct x; reflexivity. Qed.

Lemma print_wrap : forall H x j,
  print (JObj [(s """href"""%string, JRaw H); (key x, j)]) =
  (s "{""href"":"%string ++ H) ++ (tag x ++ print j) ++ s "}"%string.
Proof.
  intros H x j. rewrite tag_key. cbn [print map join fst snd]. rewrite <- !app_assoc. reflexivity.
Qed.

Theorem enc_is_print_of_expand : forall g fuel path r wrap,
  enc g fuel path r wrap = print (expand g fuel path r wrap).
Proof.
  intros g fuel. induction fuel as [| f IH]; intros path r wrap; [reflexivity |].
  rewrite enc_S, expand_S. cbv zeta.
  pose proof (print_tree _ _ (res g r) (fun r' => IH (r :: path) r' true)) as HT.
  destruct wrap, (mem r path); cbn [app].
  - reflexivity.
  - rewrite print_wrap, HT. reflexivity.
  - reflexivity.
  - rewrite app_nil_r. exact HT.
Qed.

Theorem encflat_is_print_of_expand : forall g fuel path r,
  encflat g fuel path r = print (expandflat g fuel path r).
Proof.
  intros g fuel. induction fuel as [| f IH]; intros path r; [reflexivity |].
  rewrite encflat_S, expandflat_S. destruct (mem r path); [symmetry; apply print_href_obj |].
  apply print_tree. exact (IH (r :: path)).
Qed.

Definition refs_of (x : hres) : list node :=
  match x with
  | HModel kvs => flat_map (fun kv => match snd kv with HRef r => [r] | _ => [] end) kvs
  | HColl vs => flat_map (fun v => match v with HRef r => [r] | _ => [] end) vs
  | HErr _ => []
  end.

Definition bounded (g : graph) (n : nat) : Prop :=
  forall r r', r < n -> In r' (refs_of (res g r)) -> r' < n.

Lemma nodup_bounded_length : forall n (l : list nat),
  NoDup l -> (forall x, In x l -> x < n) -> List.length l <= n.
Proof.
  intros n l Hnd Hlt. rewrite <- (seq_length n 0). apply (NoDup_incl_length Hnd).
  intros x Hx. apply in_seq. specialize (Hlt x Hx). lia.
Qed.

Lemma mem_false_not_in : forall r path, mem r path = false -> ~ In r path.
Proof.
  intros r path Hmem Hin. unfold mem in Hmem.
  rewrite (proj2 (existsb_exists _ _)) in Hmem; [discriminate Hmem |].
  exists r. split; [exact Hin | apply Nat.eqb_refl].
Qed.

Lemma ref_in_coll : forall vs r', In (HRef r') vs -> In r' (refs_of (HColl vs)).
Proof.
  intros vs r' Hin. cbn [refs_of]. apply in_flat_map. exists (HRef r'). split; [exact Hin | left; reflexivity].
Qed.

Lemma ref_in_model : forall kvs kv r', In kv kvs -> snd kv = HRef r' -> In r' (refs_of (HModel kvs)).
Proof.
  intros kvs kv r' Hin Hsnd. cbn [refs_of]. apply in_flat_map. exists kv.
  split; [exact Hin | rewrite Hsnd; left; reflexivity].
Qed.

(* the content depends on [h] only at the resources referred to *)
Lemma body_ext : forall h1 h2 x, (forall r', In r' (refs_of x) -> h1 r' = h2 r') -> body h1 x = body h2 x.
Proof.
  intros h1 h2 x H. destruct x as [kvs | vs | e]; cbn [body]; [| |reflexivity];
    (erewrite map_ext_in; [reflexivity |]).
  - intros [k v] Hin. destruct v as [raw | r' | hr | i]; try reflexivity.
    cbn [fst snd val]. rewrite (H r' (ref_in_model kvs _ r' Hin eq_refl)). reflexivity.
  - intros v Hin. destruct v as [raw | r' | hr | i]; try reflexivity.
    apply H, ref_in_coll, Hin.
Qed.

(* Both encoders are a function [F] of fuel, path and resource (one also of the wrap flag, [w]) whose level S f
   calls level f only when the resource is off the path, with the path extended by it, and only at resources
   it refers to. A path grown that way has no duplicates and stays below n, so it is no longer than n:
   n - length path bounds the levels still needed. *)
Lemma fuel_enough : forall g n (W : Type) (F : nat -> list node -> node -> W -> str),
  (forall f1 f2 path r w,
     (mem r path = false -> forall r' w', In r' (refs_of (res g r)) ->
      F f1 (r :: path) r' w' = F f2 (r :: path) r' w') ->
     F (S f1) path r w = F (S f2) path r w) ->
  bounded g n -> forall f1 f2 path r w,
  r < n -> NoDup path -> (forall x, In x path -> x < n) ->
  n - List.length path < f1 -> n - List.length path < f2 ->
  F f1 path r w = F f2 path r w.
Proof.
  intros g n W F Hstep Hb f1. induction f1 as [| f1 IH]; intros f2 path r w Hr Hnd Hlt Hf1 Hf2; [lia |].
  destruct f2 as [| f2]; [lia |]. apply Hstep. intros Hmem r' w' Hin.
  assert (Hnd' : NoDup (r :: path)) by (constructor; [exact (mem_false_not_in r path Hmem) | exact Hnd]).
  assert (Hlt' : forall x, In x (r :: path) -> x < n) by (intros x [<- | Hx]; [exact Hr | exact (Hlt x Hx)]).
  pose proof (nodup_bounded_length n (r :: path) Hnd' Hlt') as Hlen. cbn [List.length] in Hlen.
  apply IH; [exact (Hb r r' Hr Hin) | exact Hnd' | exact Hlt' | cbn [List.length]; lia ..].
Qed.

Theorem enc_fuel_enough : forall g n, bounded g n -> forall f1 f2 path r wrap,
  r < n -> NoDup path -> (forall x, In x path -> x < n) ->
  n - List.length path < f1 -> n - List.length path < f2 ->
  enc g f1 path r wrap = enc g f2 path r wrap.
Proof.
  intros g n. refine (fuel_enough g n bool (enc g) _). intros f1 f2 path r wrap H.
  rewrite !enc_S. destruct (mem r path); [reflexivity |].
  rewrite (body_ext _ (fun r' => enc g f2 (r :: path) r' true)); [reflexivity |].
  intros r' Hin. exact (H eq_refl r' true Hin).
Qed.

Theorem encflat_fuel_enough : forall g n, bounded g n -> forall f1 f2 path r,
  r < n -> NoDup path -> (forall x, In x path -> x < n) ->
  n - List.length path < f1 -> n - List.length path < f2 ->
  encflat g f1 path r = encflat g f2 path r.
Proof.
  intros g n Hb f1 f2 path r.
  refine (fuel_enough g n unit (fun f p r' _ => encflat g f p r') _ Hb f1 f2 path r tt).
  clear. intros f1 f2 path r _ H. rewrite !encflat_S. destruct (mem r path); [reflexivity |].
  apply body_ext. intros r' Hin. exact (H eq_refl r' tt Hin).
Qed.

Theorem encode_get_stable : forall g n r extra, bounded g n -> r < n ->
  enc g (S n + extra) [] r false = encode_get g n r.
Proof.
  intros g n r extra Hb Hr. unfold encode_get.
  apply (enc_fuel_enough g n Hb); [exact Hr | constructor | intros x [] | cbn [List.length]; lia ..].
Qed.

Theorem encode_get_flat_stable : forall g n r extra, bounded g n -> r < n ->
  encflat g (S n + extra) [] r = encode_get_flat g n r.
Proof.
  intros g n r extra Hb Hr. unfold encode_get_flat.
  apply (encflat_fuel_enough g n Hb); [exact Hr | constructor | intros x [] | cbn [List.length]; lia ..].
Qed.

Definition g2 : graph :=
  {| res := fun r => match r with
                     | 0 => HModel [(s """a"""%string, HRef 1)]
                     | 1 => HModel [(s """b"""%string, HRef 0)]
                     | _ => HErr (s "null"%string)
                     end;
     href := fun r => match r with
                      | 0 => s """/api/r0"""%string
                      | _ => s """/api/r1"""%string
                      end |}.

Lemma g2_bounded : bounded g2 2.
Proof.
  intros r r' Hr Hin.
  destruct r as [| [| r]]; [| | lia]; cbn in Hin; destruct Hin as [Hin | []]; subst r'; lia.
Qed.

Example cycle2_json :
  encode_get g2 2 0 =
  s "{""a"":{""href"":""/api/r1"",""model"":{""b"":{""href"":""/api/r0""}}}}"%string.
Proof. reflexivity. Qed.

Example cycle2_flat :
  encode_get_flat g2 2 0 = s "{""a"":{""b"":{""href"":""/api/r0""}}}"%string.
Proof. reflexivity. Qed.

Example cycle2_json_more_fuel :
  enc g2 50 [] 0 false =
  s "{""a"":{""href"":""/api/r1"",""model"":{""b"":{""href"":""/api/r0""}}}}"%string.
Proof. reflexivity. Qed.

Print Assumptions enc_is_print_of_expand.
Print Assumptions encflat_is_print_of_expand.
Print Assumptions enc_fuel_enough.
Print Assumptions encflat_fuel_enough.
Print Assumptions encode_get_stable.
Print Assumptions encode_get_flat_stable.
Print Assumptions g2_bounded.
Print Assumptions cycle2_json.
Print Assumptions cycle2_flat.
Print Assumptions cycle2_json_more_fuel.
