(* Theorems about the value-object decoder model Pure/ValueDec.v. *)
From Coq Require Import List Ascii String NArith Bool Arith.
From RG Require Pure.CanCall.
From RG Require Import Pure.Rid Pure.ValueDec.
Import ListNotations.

(* What an accepted outcome says of the fields read; every theorem of the form "classified so, hence of this shape"
   is a case of it. *)
Lemma classify_inv f o : classify f = o ->
  match o with
  | ORef r | OSoft r =>
      f_err f = false /\ f_rid f = Some r /\ r <> [] /\ is_valid_rid r true = true /\ f_action f = None /\ f_data f = None /\
      (o = OSoft r <-> f_soft f = true)
  | ODelete => f_err f = false /\ f_rid f = None /\ f_action f = Some (s2l "delete") /\ f_data f = None
  | OData id | OPrimData id =>
      f_err f = false /\ f_rid f = None /\ f_action f = None /\
      exists v, f_data f = Some (v, id) /\ (o = OData id <-> (v = JObj \/ v = JArr))
  | OPrimTop => False
  | OErr _ => True
  end.
Proof.
  intros <-. destruct f as [rid soft act dat err]. unfold classify. cbn [f_err f_rid f_soft f_action f_data].
  destruct err; [exact I|]. destruct rid as [[|c r]|]; [exact I| |].
  - destruct act, dat; try exact I.
    destruct (is_valid_rid (c :: r) true) eqn:V; [|exact I].
    destruct soft; repeat split; try discriminate; auto.
  - destruct act as [a|].
    + destruct dat; [exact I|].
      destruct (leqb a (s2l "delete")) eqn:E; [|exact I]. apply CanCall.leqb_eq in E. subst a. repeat split.
    + destruct dat as [[v id]|]; [|exact I].
      destruct v; repeat split; eexists; (split; [reflexivity|]); split; auto; try discriminate; intros [X|X]; discriminate X.
Qed.

(* A value is taken for a (soft) reference only when the object carried a non-empty, valid rid,
   no action and no data, and was decoded without a type error; soft exactly when the flag is set. *)
Theorem reference_sound : forall f r,
  classify f = ORef r \/ classify f = OSoft r ->
  f_err f = false /\ f_rid f = Some r /\ r <> [] /\ is_valid_rid r true = true /\
  f_action f = None /\ f_data f = None /\
  (classify f = OSoft r <-> f_soft f = true).
Proof. intros f r [H|H]; rewrite H; exact (classify_inv f _ H). Qed.

(* The delete action is recognised only for exactly {"action":"delete"} without rid and data. *)
Theorem delete_sound : forall f,
  classify f = ODelete ->
  f_err f = false /\ f_rid f = None /\ f_action f = Some (s2l "delete") /\ f_data f = None.
Proof. intros f H. exact (classify_inv f _ H). Qed.

(* A data value or wrapped primitive is the object's data member, with neither rid nor action;
   it is a data value exactly when that member is an object or an array. *)
Theorem data_sound : forall f id,
  classify f = OData id \/ classify f = OPrimData id ->
  f_err f = false /\ f_rid f = None /\ f_action f = None /\
  exists v, f_data f = Some (v, id) /\
    (classify f = OData id <-> (v = JObj \/ v = JArr)).
Proof. intros f id [H|H]; rewrite H; exact (classify_inv f _ H). Qed.

(* Anything ambiguous, ill-typed or empty is rejected: a value object is accepted only when it was
   decoded without a type error and carries exactly one of rid / action / data. *)
Theorem accepted_has_one_marker : forall f,
  is_err (classify f) = false -> f_err f = false /\ markers f = 1.
Proof.
  intros f H. pose proof (classify_inv f _ eq_refl) as I. unfold markers.
  destruct (classify f); try discriminate H; [contradiction| | | | |].
  1, 2: destruct I as (E & -> & -> & v & -> & _); split; [exact E|reflexivity].
  1, 2: destruct I as (E & -> & _ & _ & -> & -> & _); split; [exact E|reflexivity].
  destruct I as (E & -> & -> & ->). split; [exact E|reflexivity].
Qed.

(* ... and conversely the only rejected single-marker objects are the empty rid, the invalid rid and
   the unknown action. *)
Theorem one_marker_accepted : forall f,
  f_err f = false -> markers f = 1 ->
  match f_rid f, f_action f with
  | Some r, _ => classify f = (if is_nil r then OErr EEmptyRid else if is_valid_rid r true then (if f_soft f then OSoft r else ORef r) else OErr EInvalidRid)
  | None, Some a => classify f = (if leqb a (s2l "delete") then ODelete else OErr EUnknownAction)
  | None, None => is_err (classify f) = false
  end.
Proof.
  intros f E M. unfold classify, markers in *. rewrite E.
  destruct (f_rid f) as [r|]; cbn [is_some] in *.
  - destruct (is_nil r); [reflexivity|].
    destruct (f_action f), (f_data f); cbn [is_some orb] in *; try discriminate M.
    destruct (is_valid_rid r true); reflexivity.
  - destruct (f_action f) as [a|]; cbn [is_some] in *.
    + destruct (f_data f); cbn [is_some] in *; [discriminate M|reflexivity].
    + destruct (f_data f) as [[v id]|]; [destruct v; reflexivity|discriminate M].
Qed.

(* Member lists: a member whose key is none of the four names changes nothing; a later member of the
   same well-typed kind overrides an earlier one. *)
Theorem foreign_member_ignored : forall ms1 ms2 k v id,
  key_is k "rid" = false -> key_is k "soft" = false -> key_is k "action" = false -> key_is k "data" = false ->
  decode (TObj (ms1 ++ (k, v, id) :: ms2)) = decode (TObj (ms1 ++ ms2)).
Proof.
  intros ms1 ms2 k v id H1 H2 H3 H4. cbn [decode]. unfold read. rewrite !fold_left_app. cbn [fold_left store].
  rewrite H1, H2, H3, H4. reflexivity.
Qed.

(* A type error anywhere in the object rejects it, whatever follows. *)
Lemma store_err f m : f_err f = true -> f_err (store f m) = true.
Proof.
  intros H. destruct m as [[k v] id]. cbn [store].
  destruct (key_is k "rid"); [destruct v; cbn; auto|].
  destruct (key_is k "soft"); [destruct v; cbn; auto|].
  destruct (key_is k "action"); [destruct v; cbn; auto|].
  destruct (key_is k "data"); cbn; auto.
Qed.
Lemma fold_err ms : forall f, f_err f = true -> f_err (fold_left store ms f) = true.
Proof. induction ms as [|m ms IH]; intros f H; cbn; auto using store_err. Qed.

Theorem type_error_rejects : forall ms1 ms2 m,
  f_err (store (read ms1) m) = true ->
  decode (TObj (ms1 ++ m :: ms2)) = OErr EJson.
Proof.
  intros ms1 ms2 m H. cbn [decode]. unfold read. rewrite fold_left_app. cbn [fold_left].
  unfold classify. rewrite fold_err; [reflexivity|exact H].
Qed.

Example ex_ref : decode (TObj [(s2l "rid", JStr (s2l "a.b"), 0)]) = ORef (s2l "a.b").
Proof. reflexivity. Qed.
Example ex_soft : decode (TObj [(s2l "Soft", JBool true, 0); (s2l "RID", JStr (s2l "a.b?q=1"), 1)]) = OSoft (s2l "a.b?q=1").
Proof. reflexivity. Qed.
Example ex_amb : decode (TObj [(s2l "rid", JStr (s2l "a"), 0); (s2l "data", JNull, 1)]) = OErr EAmbiguous.
Proof. reflexivity. Qed.
Example ex_override : decode (TObj [(s2l "rid", JStr (s2l "a"), 0); (s2l "rid", JNull, 1); (s2l "action", JStr (s2l "delete"), 2)]) = ODelete.
Proof. reflexivity. Qed.
Example ex_typeerr : decode (TObj [(s2l "rid", JNum, 0); (s2l "data", JNum, 1)]) = OErr EJson.
Proof. reflexivity. Qed.
