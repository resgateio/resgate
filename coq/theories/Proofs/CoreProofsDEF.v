(* The integrated model Comp/Core.v, on CoreProofsABC.v: nothing left behind by subscriptions given up and nothing sent after
   a connection's disposal (C08, C11), every request answered at most once or dropped with its subscription (C07), data only
   after a get grant (C04). *)
From Coq Require Import List Arith Lia Bool.
From RG Require Import Comp.Conv Comp.Core Proofs.CoreProofsABC.
Import ListNotations.

Section CoreProofs.
Variables (val upd : Type) (app : upd -> val -> val) (norm : upd -> val -> option upd) (d : val).
Hypothesis norm_none : forall u v, norm u v = None -> app u v = v.
Hypothesis norm_some : forall u v u', norm u v = Some u' -> app u' v = app u v.

Notation csubs := (Conv.subs val upd).
Notation exec := (Core.exec val upd app norm d).
Notation cv := (Core.cv val upd).
Notation conns := (Core.conns val upd).
Notation insts := (Core.insts val upd).
Notation resps := (Core.resps val upd).
Notation quiescent := (Core.quiescent val upd).

Notation cstep := (Conv.step val upd app norm).
Notation step := (Core.step val upd app norm).
Notation conn_task := (Core.conn_task val upd app norm).
Notation next := (Core.next val upd).
Notation cst := (Conv.st val upd).
Notation st := (Core.st val upd).
Notation tk := (Core.tk val upd).
Notation out := (Core.out val upd).
Notation action := (Conv.action upd).
Notation gone := (Conv.gone val upd).
Notation subscribed := (Conv.subscribed val upd).
Notation loaded := (Conv.loaded val upd).
Notation closed := (Conv.closed val upd).
Notation ccq := (Conv.cq val upd).
Notation cqe := (Conv.qe val upd).
Notation CInv := (Conv.Inv val upd app).
Notation cfold := (fold_left cstep).
Notation acts_inv := (CoreProofsABC.acts_inv val upd app norm norm_none norm_some).
Notation mild_step := (CoreProofsABC.mild_step val upd app norm).
Notation ct_spec := (CoreProofsABC.ct_spec val upd app norm).
Notation task_shape := (CoreProofsABC.task_shape val upd app norm).
Notation grant_ind := (CoreProofsABC.grant_ind val upd app norm).
Notation task_owner := (CoreProofsABC.task_owner val upd app norm).
Notation body_sub_gone := (CoreProofsABC.body_sub_gone val upd app norm).

Definition d_arune (a : action) : bool := match a with Conv.RunE _ => true | _ => false end.

Lemma d_eff_closed : forall σ a j, (forall s, a <> Conv.Dispose upd s true) ->
  closed (csubs (cstep σ a) j) = closed (csubs σ j).
Proof.
  intros σ a j Hn.
  destruct a as [u| | |n| |k|k cl| |k|k n|k n|k]; try (rewrite subs_other by (cbn [CoreProofsABC.tgt]; discriminate); reflexivity).
  3: destruct (CoreProofsABC.rune_sub val upd app norm σ j) as [->|(it & -> & _)]; reflexivity.
  all: destruct (Nat.eq_dec j k) as [->|Hne]; [|rewrite subs_other by (cbn [CoreProofsABC.tgt]; congruence || discriminate); reflexivity].
  - cbn [Conv.step]. destruct (subscribed (csubs σ k)); [reflexivity|]. cbn [Conv.subs]. rewrite Conv.set_sub_eq. reflexivity.
  - destruct cl; [exfalso; exact (Hn k eq_refl)|]. cbn [Conv.step]. destruct (gone (csubs σ k)); [reflexivity|].
    cbn [Conv.subs]. rewrite Conv.set_sub_eq. apply orb_false_r.
  - cbn [Conv.step]. destruct (ccq (csubs σ k)) as [|[|e|] q]; [reflexivity|destruct (gone (csubs σ k))| |];
      cbn [Conv.subs]; rewrite Conv.set_sub_eq; try reflexivity.
    destruct (negb (loaded (csubs σ k))); [reflexivity|]. destruct (Conv.flag val upd (csubs σ k)); [reflexivity|].
    destruct (Conv.proc val upd app _ e). reflexivity.
  - exact (mk_closed (mild_step σ k (Conv.Respond upd k n) eq_refl)).
  - exact (mk_closed (mild_step σ k (Conv.Unqueue upd k n) eq_refl)).
  - exact (mk_closed (mild_step σ k (Conv.StartQueue upd k) eq_refl)).
Qed.

(* a step appends to the resource's queue, the cache worker's after taking the head off *)
Lemma d_qe_step : forall σ a, exists l, cqe (cstep σ a) = (if d_arune a then tl (cqe σ) else cqe σ) ++ l.
Proof.
  intros σ a. destruct a as [u| | |n| |k|k cl| |k|k n|k n|k]; cbn [Conv.step d_arune].
  9: destruct (ccq (csubs σ k)) as [|[|e|] q].
  8: destruct (cqe σ) as [|[u| |v|s1|s1| |n1] q]; cbn [tl].
  all: repeat match goal with |- context [if ?b then _ else _] => destruct b | |- context [match ?b with Some _ => _ | None => _ end] => destruct b end.
  all: cbn [Conv.qe]; first [eexists; reflexivity|exists []; symmetry; apply app_nil_r].
Qed.

Lemma d_eff_rune_qe_fwd : forall σ i, In (Conv.INop val upd i) (tl (cqe σ)) ->
  In (Conv.INop val upd i) (cqe (cstep σ (Conv.RunE upd))).
Proof. intros σ i H. destruct (d_qe_step σ (Conv.RunE upd)) as [l ->]. apply in_or_app. left. exact H. Qed.

Lemma d_fold_qe_fwd : forall acts σ i, existsb d_arune acts = false -> In (Conv.INop val upd i) (cqe σ) ->
  In (Conv.INop val upd i) (cqe (cfold acts σ)).
Proof.
  induction acts as [|a acts IH]; intros σ i; cbn [fold_left existsb]; [auto|].
  intros H. apply orb_false_elim in H as [H1 H2]. intros H. apply IH; [assumption|].
  destruct (d_qe_step σ a) as [l E]. rewrite H1 in E. rewrite E. apply in_or_app. left. exact H.
Qed.

Notation act := (Core.act val upd app norm).
Notation emit := (Core.emit val upd).
Notation setx := (Core.setx val upd).
Notation sety := (Core.sety val upd).
Notation ts := (Core.ts val upd).
Notation ta := (Core.ta val upd).
Notation tx := (Core.tx val upd).
Notation ty := (Core.ty val upd).
Notation tout := (Core.to val upd).
Notation cur := Core.cur.
Notation cqueue := Core.cqueue.
Notation direct := Core.direct.
Notation disc := Core.disc.
Notation tokset := Core.tokset.
Notation tok := Core.tok.
Notation owner := Core.owner.
Notation acb := Core.acb.
Notation rcb := Core.rcb.
Notation acc := Core.acc.
Notation ans := Core.ans.
Notation inflight := Core.inflight.
Notation reflag := Core.reflag.
Notation lost := Core.lost.
Notation ids_of := Core.ids_of.
Notation mqsub := (Core.mqsub val upd).
Notation getreq := (Core.getreq val upd).
Notation for_conn := (Core.for_conn val upd).
Notation has_data := (Core.has_data val upd).
Notation replay_o := (Core.replay_o val upd app).
Notation proc_o := (Core.proc_o val upd app).
Notation drained := (Core.drained val upd app).
Notation is_mild := (CoreProofsABC.is_mild upd).
Notation hframe := (CoreProofsABC.hframe val upd).

Ltac d_tkred := cbn [Core.ts Core.ta Core.tx Core.ty Core.to Core.act Core.emit Core.setx Core.sety].

(* outputs of a handler of connection c: frames for c, requests on its behalf *)
Definition d_plain (c : nat) (x : out) : bool :=
  match x with
  | Core.OResp _ _ c' _ _ | Core.OErr _ _ c' _ _ | Core.OAck _ _ c' _ _ | Core.OEvent _ _ c' _ | Core.OCustom _ _ c'
  | Core.OUnsubEv _ _ c' | Core.OAccessReq _ _ c' _ _ => Nat.eqb c' c
  | Core.OMqSub _ _ => true
  | _ => false
  end.
Definition d_isdata (x : out) : bool := match x with Core.OResp _ _ _ _ (Some _) => true | _ => false end.
Definition d_nd (c : nat) (x : out) : bool := d_plain c x && negb (d_isdata x).

Lemma d_nd_ack : forall c id n, forallb (d_nd c) [Core.OAck val upd c id n] = true.
Proof. intros c id n. cbn. unfold d_nd. cbn. rewrite Nat.eqb_refl. reflexivity. Qed.

Section d_Task.
Variables (c i : nat).
Notation gone_ := (Core.gone_ val upd i).
Notation remove_direct := (Core.remove_direct val upd app norm i).
Notation load_access := (Core.load_access val upd c i).
Notation reaccess := (Core.reaccess val upd app norm c i).
Notation run_cb := (Core.run_cb val upd app norm c i).

(* the Conv actions of a handler working on instance i; [dz]: it may dispose the subscription (the negation of the flag of
   CoreProofsABC.hact) *)
Definition d_hact (dz : bool) (a : action) : bool :=
  match a with
  | Conv.Dispose _ s cl => dz && Nat.eqb s i && negb cl
  | Conv.Respond _ s _ | Conv.Unqueue _ s _ | Conv.StartQueue _ s => Nat.eqb s i
  | _ => false
  end.

Record d_rel (dz : bool) (P : out -> bool) (k k' : tk) : Prop := {
  d_r_ta : exists la, ta k' = ta k ++ la /\ ts k' = cfold la (ts k) /\ forallb (d_hact dz) la = true;
  d_r_to : exists lo, tout k' = tout k ++ lo /\ forallb P lo = true;
  d_r_q : cqueue (tx k') = cqueue (tx k);
  d_r_disc : disc (tx k') = disc (tx k);
  d_r_tokset : tokset (tx k') = tokset (tx k);
  d_r_tok : tok (tx k') = tok (tx k);
  d_r_owner : owner (ty k') = owner (ty k);
  d_r_ans : ans (ty k') = ans (ty k)
}.

Lemma d_rel_refl : forall dz P k, d_rel dz P k k.
Proof. intros dz P k. constructor; try reflexivity; exists []; rewrite app_nil_r; auto. Qed.
Lemma d_rel_trans : forall dz P k1 k2 k3, d_rel dz P k1 k2 -> d_rel dz P k2 k3 -> d_rel dz P k1 k3.
Proof.
  intros dz P k1 k2 k3 [(la & A1 & A2 & A3) (lo & B1 & B2) C D E F G H] [(la' & A1' & A2' & A3') (lo' & B1' & B2') C' D' E' F' G' H'].
  constructor; try congruence.
  - exists (la ++ la'). rewrite A1', A1, A2', A2, fold_left_app, forallb_app, A3, A3', app_assoc. auto.
  - exists (lo ++ lo'). rewrite B1', B1, forallb_app, B2, B2', app_assoc. auto.
Qed.
Lemma d_rel_act : forall dz P k a, d_hact dz a = true -> d_rel dz P k (act k a).
Proof.
  intros dz P k a H. constructor; try reflexivity; [exists [a]; cbn [forallb]; rewrite H; auto|exists []; rewrite app_nil_r; auto].
Qed.
Lemma d_rel_emit : forall dz P k o, forallb P o = true -> d_rel dz P k (emit k o).
Proof. intros dz P k o H. constructor; try reflexivity; [exists []; rewrite app_nil_r; auto|exists o; auto]. Qed.
Lemma d_rel_setx : forall dz P k x, cqueue x = cqueue (tx k) -> disc x = disc (tx k) -> tokset x = tokset (tx k) ->
  tok x = tok (tx k) -> d_rel dz P k (setx k x).
Proof. intros dz P k x H1 H2 H3 H4. constructor; try assumption; try reflexivity; exists []; rewrite app_nil_r; auto. Qed.
Lemma d_rel_sety : forall dz P k y, owner y = owner (ty k) -> ans y = ans (ty k) -> d_rel dz P k (sety k y).
Proof. intros dz P k y H1 H2. constructor; try assumption; try reflexivity; exists []; rewrite app_nil_r; auto. Qed.

Lemma d_nd_hframe : forall x, hframe c x -> d_nd c x = true.
Proof.
  intros x. destruct x as [| | |c' id [v|]| | | | | |]; cbn [CoreProofsABC.hframe]; try contradiction; intros ->;
    unfold d_nd; cbn; rewrite Nat.eqb_refl; reflexivity.
Qed.
Lemma d_rp_mild : forall dz P k a, is_mild i a -> d_rel dz P k (act k a).
Proof.
  intros dz P k a H. apply d_rel_act. destruct a; cbn [CoreProofsABC.is_mild d_hact] in *; try contradiction; subst; apply Nat.eqb_refl.
Qed.
Lemma d_rp_frames : forall dz k o, Forall (hframe c) o -> d_rel dz (d_nd c) k (emit k o).
Proof.
  intros dz k o H. apply d_rel_emit, forallb_forall. intros x Hx. rewrite Forall_forall in H. apply d_nd_hframe, H, Hx.
Qed.
Lemma d_rp_req : forall dz k, d_rel dz (d_nd c) k (emit k [Core.OAccessReq val upd c i (tok (tx k))]).
Proof. intros dz k. apply d_rel_emit. unfold d_nd. cbn. rewrite Nat.eqb_refl. reflexivity. Qed.
Lemma d_rp_dispose : forall P k, d_rel true P k (act k (Conv.Dispose upd i false)).
Proof. intros P k. apply d_rel_act. cbn. rewrite Nat.eqb_refl. reflexivity. Qed.
Lemma d_rp_setx : forall dz P k cu n, d_rel dz P k (setx k (Core.with_cd (tx k) cu n)).
Proof. intros dz P k cu n. apply d_rel_setx; reflexivity. Qed.

(* as by_handler in CoreProofsABC, for [d_rel] with the frames that carry no data *)
Ltac d_by h :=
  intros; apply h; eauto using d_rel_refl, d_rel_trans, d_rp_mild, d_rel_sety, d_rp_frames, d_rp_req, d_rp_dispose, d_rp_setx.

Lemma d_load_rel : forall dz k b, d_rel dz (d_nd c) k (load_access k b).
Proof. d_by h_load. Qed.
Lemma d_reaccess_rel : forall dz k, d_rel dz (d_nd c) k (reaccess k).
Proof. d_by h_reacc. Qed.
Lemma d_remove_rel : forall k n, d_rel true (d_nd c) k (remove_direct k n).
Proof. d_by h_remove. Qed.
Lemma d_fold_false_rel : forall l k, d_rel true (d_nd c) k (fold_left (run_cb false) l k).
Proof. d_by h_run_cbs_denied. Qed.
Lemma d_hact_noclose : forall dz la s, forallb (d_hact dz) la = true -> ~ In (Conv.Dispose upd s true) la.
Proof.
  intros dz la s H Hin. rewrite forallb_forall in H. apply H in Hin. cbn in Hin. rewrite andb_false_r in Hin. discriminate.
Qed.

Lemma d_rel_gone_mono : forall dz P k k', d_rel dz P k k' -> gone_ k = true -> gone_ k' = true.
Proof.
  intros dz P k k' [(la & A1 & A2 & A3) _ _ _ _ _ _ _] H. unfold Core.gone_, Core.me in *. rewrite A2. apply gone_kept, H.
Qed.
Lemma d_rel_inv : forall dz P k k', d_rel dz P k k' -> CInv (ts k) -> CInv (ts k').
Proof. intros dz P k k' [(la & A1 & A2 & A3) _ _ _ _ _ _ _] H. rewrite A2. apply acts_inv, H. Qed.

End d_Task.

Notation QAccess := Core.QAccess.
Notation QSub := Core.QSub.
Notation QDispose := Core.QDispose.
Notation AReq := Core.AReq.
Notation AVal := Core.AVal.
Notation gone_ := (Core.gone_ val upd).
Notation insts_of := (Core.insts_of val upd).
Notation OConnUnsub := (Core.OConnUnsub val upd).

Notation GrantConn := (Core.GrantConn upd).
Notation WF := (CoreProofsABC.WF val upd).
Notation g_J := (CoreProofsABC.g_J val upd).
Notation wf_exec := (CoreProofsABC.wf_exec val upd app norm d norm_none norm_some).
Notation g_IJ_exec := (CoreProofsABC.g_IJ_exec val upd app norm d norm_none norm_some).
Notation core_conv_inv := (CoreProofsABC.core_conv_inv val upd app norm d norm_none norm_some).

Lemma d_mem_false_iff : forall j l, Conv.mem j l = false <-> ~ In j l.
Proof.
  intros j l. rewrite <- Conv.mem_In. destruct (Conv.mem j l); split; intros; try discriminate; try reflexivity; try congruence.
Qed.

Notation nongrant := (CoreProofsABC.nongrant upd).
Notation grant_dec := (CoreProofsABC.grant_dec upd).
Notation pushed := (CoreProofsABC.pushed val upd app norm).
Notation nongrant_step := (CoreProofsABC.nongrant_step val upd app norm).
Notation task_serves := (CoreProofsABC.task_serves val upd app norm).
Notation g_I := (CoreProofsABC.g_I val upd app d).

Ltac d_proj := cbn [Core.cv Core.conns Core.insts Core.next Core.mqsub Core.getreq
                    Core.cqueue Core.cur Core.direct Core.disc Core.tokset Core.tok
                    Core.owner Core.acb Core.rcb Core.acc Core.inflight Core.ans Core.reflag Core.rq Core.lost
                    Core.with_q Core.push_q Core.upd_y Core.with_cd].

Lemma d_in_push : forall c c' (b : bool) (it x : Core.qitem),
  In x (if Nat.eqb c c' && negb b then [it] else []) -> x = it /\ c = c' /\ b = false.
Proof. intros c c' b it x. destruct (Nat.eqb_spec c c'), b; cbn; intuition. Qed.
Lemma d_pushed_in : forall s o c x, In x (pushed s o c) ->
  match x with
  | Core.QReq id => o = Core.CSub upd c id /\ disc (conns s c) = false
  | Core.QUnsub id n => o = Core.CUnsub upd c id n /\ disc (conns s c) = false
  | Core.QDispose => o = Core.Disc upd c /\ disc (conns s c) = false
  | Core.QToken t => o = Core.ConnToken upd c t
  | Core.QAccess _ | Core.QSub _ => o = Core.GrantEs upd
  end.
Proof.
  intros s o c x H. destruct o as [c' id|c' id n|c'|c' t| | | | | | | ]; cbn [CoreProofsABC.pushed] in H; try contradiction.
  1-4: apply d_in_push in H as (-> & -> & E); auto.
  apply in_app_or in H as [H|H]; [apply in_qsubs_for in H|apply in_qacc_for in H]; destruct H as (i & -> & _); reflexivity.
Qed.

(* behind the disposal task, a connection queue holds only tasks that no client frame starts *)
Definition d_isdisp (x : Core.qitem) : bool := match x with Core.QDispose => true | _ => false end.
Definition d_istask (x : Core.qitem) : bool := match x with Core.QAccess _ | Core.QSub _ | Core.QToken _ => true | _ => false end.
Fixpoint d_okq (q : list Core.qitem) : bool :=
  match q with
  | [] => true
  | Core.QDispose :: r => forallb d_istask r
  | _ :: r => d_okq r
  end.

Lemma d_okq_tasks : forall q, forallb d_istask q = true -> d_okq q = true.
Proof. induction q as [|[] q IH]; cbn; intros H; try reflexivity; try discriminate; apply IH; exact H. Qed.
Lemma d_okq_tl : forall h q, d_okq (h :: q) = true -> d_okq q = true.
Proof. intros [] q; cbn; intros H; try exact H. apply d_okq_tasks. exact H. Qed.
Lemma d_okq_app : forall q l, d_okq (q ++ l) = d_okq q && (if existsb d_isdisp q then forallb d_istask l else d_okq l).
Proof.
  induction q as [|h q IH]; intros l; [reflexivity|]. destruct h; cbn [List.app d_okq existsb d_isdisp orb]; try apply IH.
  apply forallb_app.
Qed.
Lemma d_in_isdisp : forall q, existsb d_isdisp q = true -> In QDispose q.
Proof. induction q as [|[] q IH]; cbn; intros H; try discriminate; auto. Qed.

Lemma d_pushed_tasks : forall s o c, o = Core.GrantEs upd \/ disc (conns s c) = true -> forallb d_istask (pushed s o c) = true.
Proof.
  intros s o c H. apply forallb_forall. intros x Hx. apply d_pushed_in in Hx.
  destruct x; try reflexivity; destruct Hx as [E1 E2]; destruct H as [->|H]; congruence.
Qed.
Lemma d_okq_pushed : forall s o c, d_okq (pushed s o c) = true.
Proof.
  intros s o c. destruct o; cbn [CoreProofsABC.pushed]; try reflexivity; try (destruct (_ && _); reflexivity).
  apply d_okq_tasks, (d_pushed_tasks s (Core.GrantEs upd) c). left. reflexivity.
Qed.

Lemma d_okq_exec : forall t ops c, d_okq (cqueue (conns (fst (exec t ops)) c)) = true.
Proof.
  intros t ops c. revert c. apply exec_state_ind; [reflexivity|]. intros ops' o s IH c.
  destruct (grant_dec o) as [[c0 ->]|Hng].
  - destruct (Nat.eq_dec c c0) as [->|Hne]; [|rewrite conns_other by exact Hne; apply IH].
    destruct (grant_q _ _ app norm s c0) as [-> _]. specialize (IH c0). destruct (cqueue (conns s c0)) as [|it q]; [reflexivity|exact (d_okq_tl it q IH)].
  - rewrite (nc_queue (ng_conn (nongrant_step s o Hng) c)), d_okq_app, IH, d_okq_pushed. destruct (existsb d_isdisp _) eqn:E; [|reflexivity].
    apply d_pushed_tasks. right. exact (w_disp _ _ _ (wf_exec t ops') c (d_in_isdisp _ E)).
Qed.

Theorem core_cleanup : forall t ops i,
  let s := fst (exec t ops) in
  quiescent s -> i < Core.next val upd s -> Core.cur (conns s (Core.owner (insts s i))) <> Some i ->
  Conv.mem i (Conv.rs_subs val upd (cv s)) = false /\ Conv.loaded val upd (csubs (cv s) i) = false /\
  Conv.eq val upd (csubs (cv s) i) = [].
Proof.
  intros t ops i s Hq Hlt Hc.
  pose proof (wf_exec t ops) as W. destruct (g_IJ_exec t ops) as [GI J]. pose proof (core_conv_inv t ops) as HI. fold s in W, GI, J, HI.
  assert (Hg : gone (csubs (cv s) i) = true).
  { destruct (gone (csubs (cv s) i)) eqn:E; [reflexivity|]. exfalso. exact (Hc (w_live _ _ _ W i Hlt E)). }
  pose proof (Conv.igl _ _ _ _ HI i Hg) as Hl.
  split; [|split; [exact Hl|apply (Conv.i7 _ _ _ _ HI); exact Hl]].
  destruct (Conv.mem i (Conv.rs_subs val upd (cv s))) eqn:Em; [|reflexivity].
  eapply quiet_member in Em; [|exact GI|exact J|exact Hq]. rewrite Em in Hl. discriminate Hl.
Qed.

Lemma d_plain_not_unsub : forall c c', d_plain c (OConnUnsub c') = false.
Proof. reflexivity. Qed.

Definition d_done (s : st) (c : nat) : Prop :=
  cur (conns s c) = None /\ disc (conns s c) = true /\ forallb d_istask (cqueue (conns s c)) = true.

Lemma d_done_grant : forall s c, CInv (cv s) -> WF s -> d_done s c ->
  snd (step s (GrantConn c)) = [] /\ cur (conns (fst (step s (GrantConn c))) c) = None.
Proof.
  intros s c HI W (D1 & D2 & D3).
  destruct (cqueue (conns s c)) as [|it q0] eqn:Eq0; [rewrite step_conn_empty by exact Eq0; auto|].
  rewrite step_conn by (rewrite Eq0; discriminate). rewrite <- Eq0 in D3.
  assert (Hg : forall i, In (QAccess i) (cqueue (conns s c)) \/ In (QSub i) (cqueue (conns s c)) -> gone (csubs (cv s) i) = true).
  { intros i Hin. assert (X : i < next s /\ owner (insts s i) = c) by (destruct Hin as [Hin|Hin]; exact (w_q _ _ _ W c _ Hin)).
    destruct X as [Hi Ho]. destruct (gone (csubs (cv s) i)) eqn:E; [reflexivity|].
    pose proof (w_live _ _ _ W i Hi E) as Hc. rewrite Ho in Hc. congruence. }
  destruct (ct_spec s c) as [Eq|id q Eq Ec|id q i Eq Ec|id cnt q i Eq Ec|id cnt q Eq Ec|t q i Eq Ec|t q Eq Ec|i q Eq Eg|i q Eq Eg|i q Eq|q Eq];
    cbn [fst snd Core.conns]; rewrite set_conn_eq; try congruence; try (rewrite Eq in D3; discriminate D3); auto.
  - rewrite Hg in Eg by (left; rewrite Eq; left; reflexivity). discriminate Eg.
  - destruct (body_sub_gone s c (conns s c) q i HI) as (A & _ & B & _); [apply Hg; right; rewrite Eq; left; reflexivity|].
    cbv zeta in A, B. rewrite A, B. auto.
Qed.

Lemma d_done_quiet : forall s o c' x, CInv (cv s) -> WF s -> d_done s c' -> In x (snd (step s o)) -> for_conn c' x = false.
Proof.
  intros s o c' x HI W D H. destruct (for_conn c' x) eqn:Ef; [|reflexivity]. exfalso.
  rewrite (out_tag _ _ _ _ s o c' x H Ef) in H. destruct (d_done_grant s c' HI W D) as [E _]. rewrite E in H. destruct H.
Qed.

Lemma d_done_keep : forall s o c', CInv (cv s) -> WF s -> d_done s c' -> d_done (fst (step s o)) c'.
Proof.
  intros s o c' HI W D. pose proof D as (D1 & D2 & D3). unfold d_done. destruct (grant_dec o) as [[c ->]|Hng].
  - destruct (Nat.eq_dec c' c) as [->|Hcc]; [|rewrite conns_other by exact Hcc; exact D].
    destruct (grant_q _ _ app norm s c) as [-> ->]. destruct (d_done_grant s c HI W D) as [_ ->].
    repeat split; [exact D2|]. destruct (cqueue (conns s c)); [reflexivity|]. apply andb_prop in D3. apply D3.
  - pose proof (ng_conn (nongrant_step s o Hng) c') as K. rewrite (nc_queue K), (nc_cur K).
    rewrite forallb_app, D3, (disc_mono _ _ _ _ s o c' D2), d_pushed_tasks by (right; exact D2). auto.
Qed.

Lemma d_done_new : forall s o c', WF s -> d_okq (cqueue (conns s c')) = true -> In (OConnUnsub c') (snd (step s o)) ->
  snd (step s o) = [OConnUnsub c'] /\ d_done (fst (step s o)) c'.
Proof.
  intros s o c' W Ok H. destruct (grant_dec o) as [[c ->]|Hng]; [|apply (nongrant_out _ _ _ _ s o _ Hng) in H; discriminate].
  revert H. apply grant_ind; [intros _ []|]. intros it q k oi nx ms _ _ T H. cbn [fst snd] in *.
  destruct (t_kind T) as [P|[N|D]].
  - destruct (proj1 (Forall_forall _ _) (tp_outs P) _ H).
  - rewrite (tn_outs N) in H. apply in_app_or in H as [H|[H|[]]]; [|discriminate H]. destruct (mqsub s); [destruct H|destruct H as [H|[]]; discriminate H].
  - rewrite (td_outs D) in H. destruct H as [H|[]]. injection H as ->. split; [exact (td_outs D)|]. destruct (td_head D) as [q' A0].
    unfold d_done. d_proj. rewrite set_conn_eq, (t_queue T), (t_disc T), A0. cbn [tl]. rewrite A0 in Ok. repeat split; [exact (td_cur D)| |exact Ok].
    apply (w_disp _ _ _ W c'). rewrite A0. left. reflexivity.
Qed.

Theorem core_nothing_after_close : forall t ops c pre post,
  snd (exec t ops) = pre ++ Core.OConnUnsub val upd c :: post ->
  forall o, In o post -> Core.for_conn val upd c o = false.
Proof.
  intros t ops c.
  assert (K : forall pre post, snd (exec t ops) = pre ++ OConnUnsub c :: post ->
                (forall o, In o post -> for_conn c o = false) /\ d_done (fst (exec t ops)) c).
  { induction ops as [|o1 ops IH] using rev_ind; intros pre post.
    - cbn. intros H. destruct pre; discriminate.
    - destruct (exec_snoc' val upd app norm d t ops o1) as [-> ->]. intros H.
      pose proof (wf_exec t ops) as W. pose proof (core_conv_inv t ops) as HI.
      apply split_in in H as [(post1 & H & ->)|(pre2 & -> & H)].
      + destruct (IH _ _ H) as [I1 I2]. split; [|apply d_done_keep; assumption].
        intros o Ho. apply in_app_or in Ho as [Ho|Ho]; [apply I1; exact Ho|]. eapply d_done_quiet; eassumption.
      + assert (X : In (OConnUnsub c) (snd (step (fst (exec t ops)) o1))) by (rewrite H; apply in_or_app; right; left; reflexivity).
        destruct (d_done_new _ _ _ W (d_okq_exec t ops c) X) as [E Dn]. split; [|exact Dn].
        rewrite E in H. destruct pre2 as [|a pre2]; cbn [List.app] in H.
        * injection H as <-. intros o [].
        * injection H as _ H. destruct pre2; discriminate. }
  intros pre post H. apply (K pre post H).
Qed.

Definition d_co (id : nat) (l : list nat) : nat := count_occ Nat.eq_dec l id.
Notation co := d_co.
Lemma d_co_app : forall id l1 l2, co id (l1 ++ l2) = co id l1 + co id l2.
Proof. intros. unfold d_co. apply count_occ_app. Qed.
Lemma d_co_nil : forall id, co id [] = 0.
Proof. reflexivity. Qed.
Notation reqs := (Core.reqs upd).
Notation dropped := (Core.dropped val upd).

Lemma d_resps_app : forall c l1 l2, resps c (l1 ++ l2) = resps c l1 ++ resps c l2.
Proof. intros. unfold Core.resps. apply flat_map_app. Qed.
Lemma d_resps_nd_proc : forall c c0 p e, resps c (snd (proc_o c0 p e)) = [].
Proof.
  intros c c0 [ver v] e. unfold Core.proc_o. destruct (Nat.eqb ver (Conv.e_ver upd e)); [|reflexivity].
  destruct (Conv.e_upd upd e); reflexivity.
Qed.
Lemma d_resps_replay : forall c c0 l p, resps c (replay_o c0 p l) = [].
Proof.
  intros c c0 l. induction l as [|e l IH]; intros p; cbn [Core.replay_o]; [reflexivity|].
  pose proof (d_resps_nd_proc c c0 p e) as H. destruct (proc_o c0 p e) as [p' oo]. cbn [snd] in H.
  rewrite d_resps_app, H, IH. reflexivity.
Qed.
Lemma d_resps_map_resp : forall c ids, resps c (map (fun id' => Core.OResp val upd c id' None) ids) = ids.
Proof. intros c ids. induction ids as [|a l IH]; [reflexivity|]. cbn [map Core.resps flat_map]. rewrite Nat.eqb_refl. cbn. f_equal. exact IH. Qed.

Definition d_qid (x : Core.qitem) : list nat := match x with Core.QReq id | Core.QUnsub id _ => [id] | _ => [] end.
Definition d_w (rid : nat) (y : Core.inst) : nat := co rid (ids_of (acb y)) + co rid (rcb y) + co rid (lost y).

(* counts the ids in the record and the outputs of a task written out with the primitives *)
Ltac d_wcalc :=
  unfold d_w, Core.drained; d_tkred; cbn [Core.upd_y Core.acb Core.rcb Core.lost Core.owner];
  rewrite ?d_resps_app, ?ids_of_app, ?d_co_app, ?d_resps_replay, ?d_resps_map_resp, ?d_resps_nd_proc;
  cbn [Core.resps flat_map Core.ids_of List.app d_qid];
  rewrite ?Nat.eqb_refl; cbn [List.app]; rewrite ?d_co_nil; try lia.

Section d_Task2.
Variables (c i rid : nat).
Notation dispose_t := (Core.dispose_t val upd app norm i).
Notation remove_direct := (Core.remove_direct val upd app norm i).
Notation unsubscribe_direct := (Core.unsubscribe_direct val upd app norm c i).
Notation load_access := (Core.load_access val upd c i).
Notation handle_reaccess := (Core.handle_reaccess val upd app norm c i).
Notation reaccess := (Core.reaccess val upd app norm c i).
Notation respond := (Core.respond val upd app norm c i).
Notation on_ready := (Core.on_ready val upd app norm c i).
Notation unqueue_reaccess := (Core.unqueue_reaccess val upd app norm c i).
Notation run_cb := (Core.run_cb val upd app norm c i).

Definition d_m (k : tk) : nat := d_w rid (ty k) + co rid (resps c (tout k)).

Ltac d_mcalc := unfold d_m; d_wcalc.

Lemma d_m_setx : forall k x, d_m (setx k x) = d_m k.
Proof. reflexivity. Qed.
Lemma d_m_act : forall k a, d_m (act k a) = d_m k.
Proof. reflexivity. Qed.
Lemma d_m_emit : forall k o, d_m (emit k o) = d_m k + co rid (resps c o).
Proof. intros k o. unfold d_m. d_tkred. rewrite d_resps_app, d_co_app. lia. Qed.
Lemma d_m_dispose : forall k, d_m (dispose_t k) = d_m k.
Proof. intros k. unfold Core.dispose_t. cbv zeta. destruct (Core.gone_ val upd i k); [reflexivity|]. d_mcalc. Qed.
Lemma d_m_remove : forall k n, d_m (remove_direct k n) = d_m k.
Proof.
  intros k n. unfold Core.remove_direct. cbv zeta. destruct (Nat.eqb (direct (tx k)) 0); [reflexivity|].
  destruct (Nat.eqb _ 0); [rewrite d_m_dispose|]; reflexivity.
Qed.
Lemma d_m_unsubd : forall k, d_m (unsubscribe_direct k) = d_m k.
Proof.
  intros k. unfold Core.unsubscribe_direct. destruct (Nat.ltb 0 (direct (tx k))); [|reflexivity].
  rewrite d_m_emit, d_m_remove. d_mcalc.
Qed.
Lemma d_m_load : forall k b, d_m (load_access k b) = d_m k + co rid (ids_of [b]).
Proof. intros k b. unfold Core.load_access. cbv zeta. destruct (inflight (ty k)); d_mcalc. Qed.
Lemma d_m_hre : forall k, d_m (handle_reaccess k) = d_m k.
Proof.
  intros k. unfold Core.handle_reaccess. cbv zeta. destruct (Nat.eqb _ 0); [d_mcalc|].
  rewrite d_m_load. d_mcalc.
Qed.
Lemma d_m_reaccess : forall k, d_m (reaccess k) = d_m k.
Proof.
  intros k. unfold Core.reaccess. cbv zeta. destruct (Core.gone_ val upd i k); [reflexivity|].
  destruct (Core.flag_ val upd i k); [d_mcalc|apply d_m_hre].
Qed.
Lemma d_m_unq : forall k, d_m (unqueue_reaccess k) = d_m k.
Proof.
  intros k. unfold Core.unqueue_reaccess. cbv zeta. destruct (Core.gone_ val upd i _); [d_mcalc|].
  destruct (reflag _); [rewrite d_m_hre|]; d_mcalc.
Qed.
Lemma d_m_respond : forall k ids, d_m (respond k ids) = d_m k + co rid ids.
Proof.
  intros k ids. unfold Core.respond. destruct ids as [|id r]; [rewrite d_co_nil; lia|]. cbv zeta.
  rewrite d_m_emit, d_resps_map_resp. change (id :: r) with ([id] ++ r). rewrite d_co_app, Nat.add_assoc. f_equal.
  destruct (Core.sent_ val upd i k); [d_mcalc|].
  match goal with |- context [if reflag ?y then _ else _] => destruct (reflag y) end; [rewrite d_m_hre|]; d_mcalc.
Qed.
Lemma d_m_onready : forall k id, d_m (on_ready k id) = d_m k + co rid [id].
Proof.
  intros k id. unfold Core.on_ready. cbv zeta. destruct (Core.loaded_ val upd i k); [apply d_m_respond|d_mcalc].
Qed.
Lemma d_m_runcb : forall g k b, (g = true -> Core.gone_ val upd i k = false) -> d_m (run_cb g k b) = d_m k + co rid (ids_of [b]).
Proof.
  intros g k [id|] Hg; cbn [Core.run_cb]; destruct g.
  - rewrite (Hg eq_refl). apply d_m_onready.
  - rewrite d_m_remove. d_mcalc.
  - rewrite d_m_unq. d_mcalc.
  - rewrite d_m_unq, d_m_unsubd. d_mcalc.
Qed.
(* the continuations run on a grant neither dispose nor touch the connection record *)
Lemma d_runcb_true_gone : forall k b, Core.gone_ val upd i (run_cb true k b) = Core.gone_ val upd i k.
Proof.
  intros k b. apply (ext_mild val upd app norm c i), x_run_cb_granted.
Qed.
Lemma d_m_fold : forall g l k, (g = true -> Core.gone_ val upd i k = false) ->
  d_m (fold_left (run_cb g) l k) = d_m k + co rid (ids_of l).
Proof.
  intros g l. induction l as [|b l IH]; intros k Hg; cbn [fold_left]; [d_mcalc|].
  rewrite IH.
  - rewrite d_m_runcb by assumption. change (b :: l) with ([b] ++ l). rewrite ids_of_app, d_co_app. lia.
  - intros ->. rewrite d_runcb_true_gone. apply Hg. reflexivity.
Qed.
End d_Task2.

Ltac d_mcalc := unfold d_m; d_wcalc.

(* a task moves the ids of the item it runs to the record of the instance it serves or answers them *)
Lemma d_task_measure : forall rid s c, insts s (next s) = Core.inst0 ->
  let '(k, oi, nx, ms) := conn_task s c in
  match oi with
  | Some i => d_m c rid k = d_w rid (insts s i) + co rid (d_qid (hd QDispose (cqueue (conns s c))))
  | None => co rid (resps c (tout k)) = co rid (d_qid (hd QDispose (cqueue (conns s c))))
  end.
Proof.
  intros rid s c Hn.
  destruct (ct_spec s c) as [Eq|id q Eq Ec|id q i Eq Ec|id cnt q i Eq Ec|id cnt q Eq Ec|t q i Eq Ec|t q Eq Ec|i q Eq Eg|i q Eq Eg|i q Eq|q Eq];
    rewrite Eq; cbn [hd].
  - reflexivity.
  - rewrite Hn, d_m_load. destruct (mqsub s); d_mcalc.
  - unfold CoreProofsABC.body_req. cbv zeta. destruct (acc (insts s i)) as [[|]|].
    + rewrite d_m_onready. d_mcalc.
    + rewrite d_m_remove. d_mcalc.
    + rewrite d_m_load. d_mcalc.
  - unfold CoreProofsABC.body_unsub. cbv zeta.
    destruct (Nat.eqb cnt 0); [d_mcalc|]. destruct (Nat.leb cnt _); [|d_mcalc].
    rewrite d_m_remove. destruct (Nat.eqb _ 0); d_mcalc.
  - d_mcalc.
  - destruct (tokset _); [rewrite d_m_reaccess|]; d_mcalc.
  - d_mcalc.
  - d_mcalc.
  - unfold CoreProofsABC.body_access. cbv zeta.
    destruct (ans (insts s i)) as [g|]; [|d_mcalc]. rewrite d_m_fold; [d_mcalc|]. intros _. exact Eg.
  - unfold CoreProofsABC.body_sub. cbv zeta.
    destruct (ccq (csubs (cv s) i)) as [|[|e|] r]; [d_mcalc| | |].
    + destruct (gone (csubs (cv s) i)); [d_mcalc|]. rewrite d_m_respond. d_mcalc.
    + destruct (_ && _); d_mcalc.
    + rewrite d_m_reaccess. d_mcalc.
  - unfold CoreProofsABC.body_dispose. cbv zeta.
    match goal with |- context [fold_left (Core.act val upd app norm) ?l ?k] => destruct (acts_frame _ _ app norm l k) as (_ & D & E) end.
    destruct (cur (conns s c)) as [i|]; unfold d_m; d_tkred; rewrite ?D, E; d_mcalc.
Qed.

Fixpoint d_sum (own : nat -> nat) (w : nat -> nat) (c n : nat) : nat :=
  match n with 0 => 0 | S m => d_sum own w c m + (if Nat.eqb (own m) c then w m else 0) end.
Lemma d_co_flat : forall id (own : nat -> nat) (lst : nat -> list nat) c n,
  co id (flat_map lst (filter (fun i => Nat.eqb (own i) c) (seq 0 n))) = d_sum own (fun i => co id (lst i)) c n.
Proof.
  intros id own lst c n. induction n as [|n IH]; [reflexivity|].
  rewrite seq_S, filter_app, flat_map_app, d_co_app, IH. cbn [d_sum plus filter].
  destruct (Nat.eqb (own n) c); cbn [flat_map]; [rewrite app_nil_r|]; reflexivity.
Qed.
Lemma d_co_dropped : forall id s c, co id (dropped s c) = d_sum (fun i => owner (insts s i)) (fun i => co id (lost (insts s i))) c (next s).
Proof. intros id s c. unfold Core.dropped, Core.insts_of. apply d_co_flat. Qed.
Lemma d_sum_ext : forall own own' w w' c n,
  (forall j, j < n -> own' j = own j) -> (forall j, j < n -> own j = c -> w' j = w j) -> d_sum own' w' c n = d_sum own w c n.
Proof.
  intros own own' w w' c n. induction n as [|n IH]; intros H1 H2; [reflexivity|]. cbn [d_sum].
  rewrite IH; [|intros; apply H1; lia|intros; apply H2; auto; lia]. rewrite (H1 n) by lia.
  destruct (Nat.eqb_spec (own n) c); [rewrite H2 by (auto; lia)|]; reflexivity.
Qed.
(* replacing the record of instance i moves its weight from the sum of its old owner to that of its new one *)
Lemma d_sum_set : forall (f : nat -> Core.inst) i y (w : Core.inst -> nat) c n,
  d_sum (fun j => owner (Core.set_inst f i y j)) (fun j => w (Core.set_inst f i y j)) c n +
    (if Nat.ltb i n && Nat.eqb (owner (f i)) c then w (f i) else 0) =
  d_sum (fun j => owner (f j)) (fun j => w (f j)) c n + (if Nat.ltb i n && Nat.eqb (owner y) c then w y else 0).
Proof.
  intros f i y w c n. induction n as [|n IH]; [reflexivity|]. cbn [d_sum]. destruct (Nat.eq_dec n i) as [->|Hne].
  - rewrite !set_inst_eq. rewrite Nat.ltb_irrefl in IH. rewrite (proj2 (Nat.ltb_lt i (S i))) by lia. cbn [andb] in *.
    destruct (Nat.eqb (owner y) c), (Nat.eqb (owner (f i)) c); lia.
  - rewrite !set_inst_neq by exact Hne.
    assert (E : Nat.ltb i (S n) = Nat.ltb i n) by (destruct (Nat.ltb_spec i (S n)), (Nat.ltb_spec i n); lia || reflexivity).
    rewrite E. destruct (Nat.eqb (owner (f n)) c); lia.
Qed.

Definition d_queued (s : st) (c : nat) : list nat := flat_map d_qid (cqueue (conns s c)).
Definition d_total (id : nat) (s : st) (c : nat) : nat :=
  co id (d_queued s c) + d_sum (fun i => owner (insts s i)) (fun i => d_w id (insts s i)) c (next s).

Lemma d_resps_none : forall c' l, (forall x, In x l -> for_conn c' x = false) -> resps c' l = [].
Proof.
  intros c' l. induction l as [|x l IH]; intros H; [reflexivity|]. cbn [Core.resps flat_map].
  fold (resps c' l). rewrite IH by (intros; apply H; right; assumption). rewrite app_nil_r.
  pose proof (H x (or_introl eq_refl)) as Hx. destruct x; cbn [Core.for_conn] in Hx; try reflexivity; rewrite Hx; reflexivity.
Qed.

Lemma d_qid_tasks : forall l, forallb d_istask l = true -> flat_map d_qid l = [].
Proof. induction l as [|[] l IH]; cbn; intros H; try discriminate; auto. Qed.
Lemma d_qid_pushed : forall s o c, flat_map d_qid (pushed s o c) = if disc (conns s c) then [] else reqs c [o].
Proof.
  intros s o c. destruct o as [c' id|c' id n|c'|c' t| | | | | | | ]; cbn [CoreProofsABC.pushed Core.reqs flat_map List.app];
    try (destruct (disc _); reflexivity).
  1-2: rewrite (Nat.eqb_sym c' c); destruct (Nat.eqb_spec c c') as [->|_]; cbn [andb]; destruct (disc _); reflexivity.
  1-2: destruct (_ && _); destruct (disc _); reflexivity.
  rewrite d_qid_tasks by (apply (d_pushed_tasks s (Core.GrantEs upd) c); left; reflexivity). destruct (disc _); reflexivity.
Qed.

Lemma d_count_ng : forall id s o c', nongrant o ->
  d_total id (fst (step s o)) c' + co id (resps c' (snd (step s o))) =
  d_total id s c' + co id (if disc (conns s c') then [] else reqs c' [o]).
Proof.
  intros id s o c' Hng. pose proof (nongrant_step s o Hng) as N.
  assert (Hr : resps c' (snd (step s o)) = []) by (destruct (ng_out N) as [-> | ->]; reflexivity).
  unfold d_total, d_queued. rewrite Hr, (ng_next N), (nc_queue (ng_conn N c')), flat_map_app, d_qid_pushed, !d_co_app.
  rewrite (d_sum_ext (fun i => owner (insts s i)) (fun i => owner (insts (fst (step s o)) i)) (fun i => d_w id (insts s i))); [rewrite d_co_nil; lia| |];
    intros j; intros; destruct (ng_insts N j) as [-> | (g & _ & ->)]; reflexivity.
Qed.

Lemma d_count_grant : forall id s c c', WF s -> insts s (next s) = Core.inst0 ->
  d_total id (fst (step s (GrantConn c))) c' + co id (resps c' (snd (step s (GrantConn c)))) = d_total id s c'.
Proof.
  intros id s c c' W Hn.
  assert (Hr : c' <> c -> resps c' (snd (step s (GrantConn c))) = []).
  { intros Hcc. apply d_resps_none. intros x. apply other_quiet. congruence. }
  revert Hr. apply grant_ind; [intros _ _; cbn [fst snd Core.resps flat_map]; rewrite d_co_nil; lia|]. intros it q k oi nx ms Eq Ec T.
  pose proof (task_serves s c W) as Hoi. pose proof (d_task_measure id s c Hn) as Ms. rewrite Eq, Ec in Ms. rewrite Ec in Hoi.
  cbn [hd fst snd] in *. pose proof (t_queue T) as Hq.
  assert (Hnx : nx = next s \/ nx = S (next s) /\ oi = Some (next s))
    by (destruct (t_kind T) as [P|[N|D]]; [left; exact (tp_next P)|right; exact (conj (tn_next N) (tn_inst N))|left; exact (td_next D)]).
  intros Hr. unfold d_total, d_queued. d_proj.
  assert (Hw : d_sum (fun j => owner (match oi with Some i => Core.set_inst (insts s) i (ty k) | None => insts s end j))
                 (fun j => d_w id (match oi with Some i => Core.set_inst (insts s) i (ty k) | None => insts s end j)) c' nx +
               (if Nat.eqb c c' then co id (resps c (tout k)) else 0) =
               d_sum (fun j => owner (insts s j)) (fun j => d_w id (insts s j)) c' (next s) +
               (if Nat.eqb c c' then co id (d_qid it) else 0)).
  { destruct oi as [i|]; cbv iota; [|destruct Hnx as [->|[_ X]]; [|discriminate X]; destruct (Nat.eqb c c'); lia].
    pose proof (d_sum_set (insts s) i (ty k) (d_w id) c' (next s)) as X. unfold d_m in Ms.
    destruct (Hoi i eq_refl) as (Ho & [(Hl & Hoo)|(-> & ->)]).
    - destruct Hnx as [->|[_ E]]; [|injection E as ->; lia]. rewrite Ho, Hoo, (proj2 (Nat.ltb_lt _ _) Hl) in X. cbn [andb] in X.
      destruct (Nat.eqb c c'); lia.
    - cbn [d_sum]. rewrite !set_inst_eq, Ho. rewrite Nat.ltb_irrefl in X. rewrite Hn in Ms. cbn [andb] in X. destruct (Nat.eqb c c'); cbn in Ms; lia. }
  destruct (Nat.eq_dec c' c) as [->|Hcc].
  - rewrite set_conn_eq, Hq, Eq. cbn [tl flat_map]. rewrite Nat.eqb_refl, d_co_app in *. lia.
  - rewrite set_conn_neq, (Hr Hcc), d_co_nil by exact Hcc. apply Nat.eqb_neq in Hcc. rewrite Nat.eqb_sym, Hcc in Hw. lia.
Qed.

Lemma d_count_inv : forall t ops c rid,
  let s := fst (exec t ops) in let outs := snd (exec t ops) in
  d_total rid s c + co rid (resps c outs) <= co rid (reqs c ops) /\
  (disc (conns s c) = false -> d_total rid s c + co rid (resps c outs) = co rid (reqs c ops)).
Proof.
  intros t ops c rid. induction ops as [|o ops IH] using rev_ind.
  - cbn. split; [|intros _]; reflexivity.
  - cbv zeta in *. destruct (exec_snoc' val upd app norm d t ops o) as [-> ->].
    pose proof (wf_exec t ops) as W. pose proof (proj1 (g_i_fresh _ _ _ _ _ (proj1 (g_IJ_exec t ops)) _ (le_n _))) as Hn.
    set (s := fst (exec t ops)) in *. set (outs := snd (exec t ops)) in *.
    destruct IH as [I1 I2].
    assert (Er : reqs c (ops ++ [o]) = reqs c ops ++ reqs c [o]) by (unfold Core.reqs; apply flat_map_app).
    rewrite Er, d_resps_app, !d_co_app.
    destruct (grant_dec o) as [[c0 ->]|Hng].
    + pose proof (d_count_grant rid s c0 c W Hn) as K.
      assert (Z : reqs c [GrantConn c0] = []) by reflexivity. rewrite Z, d_co_nil.
      split; [lia|]. intros Hd. apply disc_back in Hd. specialize (I2 Hd). lia.
    + pose proof (d_count_ng rid s o c Hng) as K.
      split.
      * destruct (disc (conns s c)); rewrite ?d_co_nil in K; lia.
      * intros Hd. apply disc_back in Hd. specialize (I2 Hd). rewrite Hd in K. lia.
Qed.

Lemma d_quiet_w : forall s j rid, g_I s -> WF s -> g_J s -> quiescent s -> j < next s ->
  d_w rid (insts s j) = co rid (lost (insts s j)).
Proof.
  intros s j rid GI W J Hq Hlt. pose proof Hq as (Hqe & _ & _ & Hfl). pose proof (g_i_inv _ _ _ _ _ GI) as HI.
  assert (Ha : acb (insts s j) = []).
  { destruct (acb (insts s j)) eqn:E; [reflexivity|]. exfalso.
    assert (X : acb (insts s j) <> []) by (rewrite E; discriminate). apply (I_acb _ _ _ _ _ _ GI) in X. rewrite (Hfl j Hlt) in X. discriminate. }
  assert (Hr : rcb (insts s j) = []).
  { destruct (rcb (insts s j)) eqn:Er; [reflexivity|]. exfalso.
    assert (X : rcb (insts s j) <> []) by (rewrite Er; discriminate).
    destruct (I_rcb _ _ _ _ _ _ GI X) as [Hg Hl].
    pose proof (Conv.i3 _ _ _ _ HI j Hg) as H3. rewrite Hqe, (g_j_sd _ _ _ J j Hlt) in H3. cbn in H3.
    assert (Hm : Conv.mem j (Conv.rs_subs val upd (cv s)) = true) by (destruct (Conv.mem j (Conv.rs_subs val upd (cv s))); [reflexivity|discriminate]).
    eapply quiet_member in Hm; [|exact GI|exact J|exact Hq]. rewrite Hm in Hl. discriminate Hl. }
  unfold d_w. rewrite Ha, Hr. cbn. reflexivity.
Qed.

Theorem core_responses : forall t ops c,
  let s := fst (exec t ops) in let outs := snd (exec t ops) in
  NoDup (Core.reqs upd c ops) ->
  NoDup (resps c outs) /\ incl (resps c outs) (Core.reqs upd c ops) /\
  (forall id, In id (resps c outs) -> ~ In id (Core.dropped val upd s c)) /\
  (quiescent s -> Core.disc (conns s c) = false ->
   forall id, In id (Core.reqs upd c ops) -> In id (resps c outs) \/ In id (Core.dropped val upd s c)).
Proof.
  intros t ops c s outs Hnd.
  assert (K : forall rid, d_total rid s c + co rid (resps c outs) <= co rid (reqs c ops) /\
                (disc (conns s c) = false -> d_total rid s c + co rid (resps c outs) = co rid (reqs c ops))).
  { intros rid. apply (d_count_inv t ops c rid). }
  assert (L : forall rid, co rid (reqs c ops) <= 1).
  { intros rid. unfold d_co. apply (proj1 (NoDup_count_occ Nat.eq_dec (reqs c ops)) Hnd). }
  assert (Dr : forall rid, co rid (dropped s c) <= d_total rid s c).
  { intros rid. rewrite d_co_dropped. unfold d_total.
    assert (X : forall n, d_sum (fun i => owner (insts s i)) (fun i => co rid (lost (insts s i))) c n <=
                          d_sum (fun i => owner (insts s i)) (fun i => d_w rid (insts s i)) c n).
    { induction n as [|n IH]; [reflexivity|]. cbn [d_sum]. unfold d_w at 2. destruct (Nat.eqb _ c); lia. }
    specialize (X (next s)). lia. }
  split; [|split; [|split]].
  - apply (NoDup_count_occ Nat.eq_dec). intros rid. destruct (K rid) as [K1 _]. specialize (L rid). unfold d_co in *. lia.
  - intros rid Hin. apply (count_occ_In Nat.eq_dec) in Hin. destruct (K rid) as [K1 _].
    apply (count_occ_In Nat.eq_dec). unfold d_co in *. lia.
  - intros rid Hin Hdr. apply (count_occ_In Nat.eq_dec) in Hin. apply (count_occ_In Nat.eq_dec) in Hdr.
    destruct (K rid) as [K1 _]. specialize (L rid). specialize (Dr rid). unfold d_co in *. lia.
  - intros Hq Hd rid Hin. apply (count_occ_In Nat.eq_dec) in Hin. destruct (K rid) as [_ K2]. specialize (K2 Hd).
    pose proof (wf_exec t ops) as W. destruct (g_IJ_exec t ops) as [GI J]. fold s in W, GI, J.
    assert (Tq : d_total rid s c = co rid (dropped s c)).
    { rewrite d_co_dropped. unfold d_total, d_queued. destruct Hq as (Hqe & Hqc & Hq3 & Hq4). rewrite Hqc. cbn [flat_map]. rewrite d_co_nil. cbn [plus].
      apply d_sum_ext; [reflexivity|]. intros j Hj _. apply d_quiet_w; try assumption. repeat split; assumption. }
    rewrite Tq in K2. unfold d_co in *.
    destruct (count_occ Nat.eq_dec (resps c outs) rid) eqn:E1.
    + right. apply (count_occ_In Nat.eq_dec). lia.
    + left. apply (count_occ_In Nat.eq_dec). lia.
Qed.

Lemma d_next_mono : forall s o, next s <= next (fst (step s o)).
Proof.
  intros s o. destruct (grant_dec o) as [[c ->]|Hng]; [|rewrite (ng_next (nongrant_step s o Hng)); lia].
  apply grant_ind; [intros _; cbn [fst]; lia|]. intros it q k oi nx ms _ _ T. cbn [fst Core.next].
  destruct (t_kind T) as [P|[N|D]]; [rewrite (tp_next P)|rewrite (tn_next N)|rewrite (td_next D)]; lia.
Qed.
Lemma d_owner_frame : forall s o j, j < next s -> owner (insts (fst (step s o)) j) = owner (insts s j).
Proof.
  intros s o j Hj. destruct (grant_dec o) as [[c ->]|Hng].
  - apply grant_ind; [reflexivity|]. intros it q k oi nx ms _ Ec _. pose proof (task_owner s c) as Ho. rewrite Ec in Ho.
    cbn [fst Core.insts]. destruct oi as [i|]; [|reflexivity].
    unfold Core.set_inst. destruct (Nat.eqb_spec j i) as [->|]; [apply Ho; auto|reflexivity].
  - destruct (ng_insts (nongrant_step s o Hng) j) as [-> | (g & _ & ->)]; reflexivity.
Qed.

(* a handler that sends no data keeps the cached verdict or forgets it, keeps the waiting requests or drops them *)
Definition d_ar (y y' : Core.inst) : Prop := (acc y' = acc y \/ acc y' = None) /\ (rcb y' = rcb y \/ rcb y' = []).
Lemma d_ar_refl : forall y, d_ar y y.
Proof. intros y. split; left; reflexivity. Qed.
Lemma d_ar_trans : forall y1 y2 y3, d_ar y1 y2 -> d_ar y2 y3 -> d_ar y1 y3.
Proof.
  intros y1 y2 y3 [[A|A] [B|B]] [[A'|A'] [B'|B']]; split; try (right; assumption); try (left; congruence); try (right; congruence).
Qed.

Section d_Task3.
Variables (c i : nat).
Notation dispose_t := (Core.dispose_t val upd app norm i).
Notation remove_direct := (Core.remove_direct val upd app norm i).
Notation unsubscribe_direct := (Core.unsubscribe_direct val upd app norm c i).
Notation load_access := (Core.load_access val upd c i).
Notation handle_reaccess := (Core.handle_reaccess val upd app norm c i).
Notation reaccess := (Core.reaccess val upd app norm c i).
Notation unqueue_reaccess := (Core.unqueue_reaccess val upd app norm c i).
Notation run_cb := (Core.run_cb val upd app norm c i).

Lemma d_ar_dispose : forall k, d_ar (ty k) (ty (dispose_t k)).
Proof. intros k. unfold Core.dispose_t. destruct (Core.gone_ val upd i k); [apply d_ar_refl|]. split; [left|right]; reflexivity. Qed.
Lemma d_ar_remove : forall k n, d_ar (ty k) (ty (remove_direct k n)).
Proof.
  intros k n. unfold Core.remove_direct. destruct (Nat.eqb (direct (tx k)) 0); [apply d_ar_refl|]. cbv zeta.
  destruct (Nat.eqb _ 0); [apply (d_ar_dispose (setx k _))|apply d_ar_refl].
Qed.
Lemma d_ar_unsubd : forall k, d_ar (ty k) (ty (unsubscribe_direct k)).
Proof. intros k. unfold Core.unsubscribe_direct. destruct (Nat.ltb 0 (direct (tx k))); [apply d_ar_remove|apply d_ar_refl]. Qed.
Lemma d_ar_load : forall k b, d_ar (ty k) (ty (load_access k b)).
Proof. intros k b. unfold Core.load_access. cbv zeta. destruct (inflight (ty k)); split; left; reflexivity. Qed.
Lemma d_ar_hre : forall k, d_ar (ty k) (ty (handle_reaccess k)).
Proof.
  intros k. unfold Core.handle_reaccess. cbv zeta. destruct (Nat.eqb _ 0); [split; left; reflexivity|].
  eapply d_ar_trans; [|apply d_ar_load]. split; [right|left]; reflexivity.
Qed.
Lemma d_ar_reaccess : forall k, d_ar (ty k) (ty (reaccess k)).
Proof.
  intros k. unfold Core.reaccess. destruct (Core.gone_ val upd i k); [apply d_ar_refl|].
  destruct (Core.flag_ val upd i k); [split; left; reflexivity|apply d_ar_hre].
Qed.
Lemma d_ar_unq : forall k, d_ar (ty k) (ty (unqueue_reaccess k)).
Proof.
  intros k. unfold Core.unqueue_reaccess. cbv zeta. destruct (Core.gone_ val upd i _); [split; left; reflexivity|].
  destruct (reflag _); [eapply d_ar_trans; [|apply d_ar_hre]|]; split; left; reflexivity.
Qed.
Lemma d_ar_runcb_false : forall k b, d_ar (ty k) (ty (run_cb false k b)).
Proof.
  intros k [id|]; cbn [Core.run_cb]; [apply (d_ar_remove (emit k _))|]. eapply d_ar_trans; [apply d_ar_unsubd|apply d_ar_unq].
Qed.
Lemma d_ar_fold_false : forall l k, d_ar (ty k) (ty (fold_left (run_cb false) l k)).
Proof.
  intros l k. apply (fold_keeps (fun k' => d_ar (ty k) (ty k'))); [|apply d_ar_refl].
  intros k' b H. eapply d_ar_trans; [exact H|apply d_ar_runcb_false].
Qed.

Definition d_nodata (l : list out) : Prop := forall x, In x l -> d_isdata x = false.
Lemma d_rel_nodata : forall dz k k', d_rel i dz (d_nd c) k k' -> d_nodata (tout k) -> d_nodata (tout k').
Proof.
  intros dz k k' [_ (lo & B1 & B2) _ _ _ _ _ _] H x Hx. rewrite B1 in Hx. apply in_app_or in Hx as [Hx|Hx]; [apply H; exact Hx|].
  rewrite forallb_forall in B2. apply B2 in Hx. unfold d_nd in Hx. apply andb_prop in Hx as [_ Hx]. apply negb_true_iff in Hx. exact Hx.
Qed.
End d_Task3.

(* what the record of an instance shows of a grant (an answer that grants, the verdict, requests waiting for the resource) is
   backed by one; G: the service has granted the instance access *)
Definition d_eg (G : Prop) (y : Core.inst) : Prop := (ans y = Some true -> G) /\ (acc y = Some true -> G) /\ (rcb y <> [] -> G).
Lemma d_eg_ar : forall G y y', ans y' = ans y -> d_ar y y' -> d_eg G y -> d_eg G y'.
Proof.
  intros G y y' A [[B|B] [C|C]] (E1 & E2 & E3); rewrite <- A in E1; repeat split; rewrite ?B, ?C; try assumption; try discriminate;
    intros X; exfalso; apply X; reflexivity.
Qed.
Definition d_E (s : st) (G : nat -> Prop) : Prop := forall j, d_eg (G j) (insts s j).

(* what d_task_E shows of a task: every data frame it sent is for an instance with a grant behind it ([G]), and the record it
   leaves has one behind its verdict ([d_eg]) *)
Definition d_Egoal (G : nat -> Prop) (s : st) (k : tk) (oi : option nat) : Prop :=
  (forall x, In x (tout k) -> d_isdata x = true -> exists i, oi = Some i /\ i < next s /\ G i) /\
  (forall i, oi = Some i -> d_eg (G i) (ty k)).

Lemma d_nodata_nil : d_nodata [].
Proof. intros x []. Qed.
Lemma d_Egoal_nd : forall (G : nat -> Prop) s k i, d_nodata (tout k) -> d_eg (G i) (ty k) -> d_Egoal G s k (Some i).
Proof.
  intros G s k i H1 H2. split.
  - intros x Hx Hd. rewrite (H1 x Hx) in Hd. discriminate.
  - intros i' E. injection E as <-. exact H2.
Qed.
Lemma d_Egoal_G : forall (G : nat -> Prop) s k i, i < next s -> G i -> d_Egoal G s k (Some i).
Proof.
  intros G s k i H1 H2. split.
  - intros x _ _. exists i. auto.
  - intros i' E. injection E as <-. repeat split; intros _; exact H2.
Qed.
Lemma d_Egoal_none : forall (G : nat -> Prop) s k, d_nodata (tout k) -> d_Egoal G s k None.
Proof.
  intros G s k H1. split.
  - intros x Hx Hd. rewrite (H1 x Hx) in Hd. discriminate.
  - intros i' E. discriminate.
Qed.
Lemma d_Egoal_rel : forall (G : nat -> Prop) s c i dz K1 k, d_rel i dz (d_nd c) K1 k -> d_ar (ty K1) (ty k) ->
  d_nodata (tout K1) -> d_eg (G i) (ty K1) -> d_Egoal G s k (Some i).
Proof.
  intros G s c i dz K1 k R A H1 H2. apply d_Egoal_nd; [apply (d_rel_nodata c i dz K1 k R H1)|].
  exact (d_eg_ar _ _ _ (d_r_ans i dz _ K1 k R) A H2).
Qed.

Lemma d_task_E : forall (G : nat -> Prop) s c, WF s -> d_E s G ->
  let '(k, oi, nx, ms) := conn_task s c in d_Egoal G s k oi.
Proof.
  intros G s c W E.
  (* [Q]: a task that sends no data and starts from the record of instance i with nothing sent; [Q0]: one that does nothing *)
  assert (Q : forall i K1 k, d_rel i true (d_nd c) K1 k -> ty K1 = insts s i -> tout K1 = [] -> d_ar (ty K1) (ty k) ->
            d_Egoal G s k (Some i)).
  { intros i K1 k R Ey Eo A. apply (d_Egoal_rel G s c i true K1 k R A); [rewrite Eo; apply d_nodata_nil|rewrite Ey; apply E]. }
  assert (Q0 : forall i k, ty k = insts s i -> tout k = [] -> d_Egoal G s k (Some i)).
  { intros i k Ey Eo. apply (Q i k k (d_rel_refl i true _ k) Ey Eo), d_ar_refl. }
  destruct (ct_spec s c) as [Eq|id q Eq Ec|id q i Eq Ec|id cnt q i Eq Ec|id cnt q Eq Ec|t q i Eq Ec|t q Eq Ec|i q Eq Eg|i q Eq Eg|i q Eq|q Eq].
  - apply d_Egoal_none, d_nodata_nil.
  - match goal with |- d_Egoal _ _ (Core.load_access _ _ _ _ ?K _) _ => apply (d_Egoal_rel G s c (next s) true K) end.
    + apply d_load_rel.
    + apply d_ar_load.
    + d_tkred. cbn [List.app]. destruct (mqsub s); [apply d_nodata_nil|]. intros x [<-|[]]. reflexivity.
    + repeat split; cbn; try discriminate. intros X. exfalso. apply X. reflexivity.
  - unfold CoreProofsABC.body_req. cbv zeta. destruct (E i) as (_ & E2 & _). destruct (acc (insts s i)) as [[|]|].
    + apply d_Egoal_G; [apply (w_cur _ _ _ W c i Ec)|apply E2; reflexivity].
    + eapply Q; [eapply d_rel_trans; [|apply d_remove_rel]; apply d_rp_frames; repeat constructor|reflexivity|reflexivity|eapply d_ar_trans; [|apply d_ar_remove]; split; left; reflexivity].
    + eapply Q; [apply d_load_rel|reflexivity|reflexivity|apply d_ar_load].
  - unfold CoreProofsABC.body_unsub. cbv zeta.
    destruct (Nat.eqb cnt 0); [eapply Q; [apply d_rp_frames; repeat constructor|reflexivity|reflexivity|apply d_ar_refl]|].
    destruct (Nat.leb cnt _); [|eapply Q; [apply d_rp_frames; repeat constructor|reflexivity|reflexivity|apply d_ar_refl]].
    destruct (Nat.eqb _ 0).
    + eapply Q; [eapply d_rel_trans; [|apply d_remove_rel]; eapply d_rel_trans; [|apply d_rel_sety; reflexivity]; apply d_rel_emit, d_nd_ack
                |reflexivity|reflexivity|eapply d_ar_trans; [|apply d_ar_remove]; split; left; reflexivity].
    + eapply Q; [eapply d_rel_trans; [|apply d_remove_rel]; apply d_rel_emit, d_nd_ack|reflexivity|reflexivity|eapply d_ar_trans; [|apply d_ar_remove]; apply d_ar_refl].
  - apply d_Egoal_none. intros x [<-|[]]. reflexivity.
  - destruct (tokset _); [|apply Q0; reflexivity]. eapply Q; [apply d_reaccess_rel|reflexivity|reflexivity|apply d_ar_reaccess].
  - apply d_Egoal_none, d_nodata_nil.
  - apply Q0; reflexivity.
  - unfold CoreProofsABC.body_access. cbv zeta. destruct (E i) as (E1 & _ & E3). destruct (ans (insts s i)) as [[|]|].
    + apply d_Egoal_G; [apply (w_q _ _ _ W c (QAccess i)); rewrite Eq; left; reflexivity|apply E1; reflexivity].
    + match goal with |- d_Egoal _ _ (fold_left _ _ ?K) _ => apply (d_Egoal_rel G s c i true K) end.
      * apply d_fold_false_rel.
      * apply d_ar_fold_false.
      * apply d_nodata_nil.
      * repeat split; cbn; try discriminate. exact E3.
    + apply Q0; reflexivity.
  - unfold CoreProofsABC.body_sub. cbv zeta. destruct (ccq (csubs (cv s) i)) as [|[|e|] r].
    + apply Q0; reflexivity.
    + destruct (gone (csubs (cv s) i)); [apply Q0; reflexivity|]. d_tkred. destruct (rcb (insts s i)) as [|id r'] eqn:Er.
      * eapply Q; [apply d_rel_sety; reflexivity|reflexivity|reflexivity|split; [left|right]; reflexivity].
      * apply d_Egoal_G; [apply (w_q _ _ _ W c (QSub i)); rewrite Eq; left; reflexivity|]. apply (E i). rewrite Er. discriminate.
    + eapply Q; [apply d_rp_frames; destruct (_ && _); [apply hframe_proc_o|constructor]|reflexivity|reflexivity|apply d_ar_refl].
    + eapply Q; [apply d_reaccess_rel|reflexivity|reflexivity|apply d_ar_reaccess].
  - unfold CoreProofsABC.body_dispose. cbv zeta.
    match goal with |- context [fold_left (Core.act val upd app norm) ?l ?k] => destruct (acts_frame _ _ app norm l k) as (_ & D & F) end.
    assert (N : d_nodata [OConnUnsub c]) by (intros x [<-|[]]; reflexivity).
    destruct (cur (conns s c)) as [i|]; [|apply d_Egoal_none; d_tkred; rewrite F; exact N].
    apply d_Egoal_nd; d_tkred; [rewrite F; exact N|]. rewrite D. d_tkred. destruct (E i) as (E1 & E2 & _).
    repeat split; cbn [Core.upd_y Core.ans Core.acc Core.rcb]; [exact E1|exact E2|]. intros X. exfalso. apply X. reflexivity.
Qed.

Lemma d_isdata_has : forall c x, has_data c x = true -> d_isdata x = true /\ for_conn c x = true.
Proof. intros c x. destruct x; cbn; try discriminate. destruct v; [auto|discriminate]. Qed.

Lemma d_E_step : forall s o (G : nat -> Prop), WF s -> d_E s G -> (forall j, o = Core.MqAccess upd j true -> G j) ->
  d_E (fst (step s o)) G.
Proof.
  intros s o G W E Ho. destruct (grant_dec o) as [[c ->]|Hng].
  - apply grant_ind; [intros _; exact E|]. intros it q k oi nx ms _ Ec _. pose proof (d_task_E G s c W E) as T. rewrite Ec in T.
    destruct T as [_ T]. intros j. cbn [fst]. d_proj. destruct oi as [i|]; [|apply E].
    unfold Core.set_inst. destruct (Nat.eqb_spec j i) as [->|]; [apply (T i eq_refl)|apply E].
  - intros j. destruct (ng_insts (nongrant_step s o Hng) j) as [-> | (g & -> & ->)]; [apply E|].
    destruct (E j) as (_ & B & C). repeat split; cbn [Core.upd_y Core.ans Core.acc Core.rcb]; try assumption.
    intros X. injection X as ->. apply Ho. reflexivity.
Qed.

Lemma d_data_step : forall s o (G : nat -> Prop) c' x, WF s -> d_E s G -> In x (snd (step s o)) -> has_data c' x = true ->
  exists i, i < next s /\ owner (insts s i) = c' /\ G i.
Proof.
  intros s o G c' x W E Hx Hd. apply d_isdata_has in Hd as [Hd Hf].
  pose proof (out_tag _ _ _ _ s o c' x Hx Hf) as ->.
  revert Hx. apply grant_ind; [intros _ []|]. intros it q k oi nx ms _ Ec _ Hx. cbn [snd] in Hx.
  pose proof (d_task_E G s c' W E) as T. pose proof (task_serves s c' W) as Hoi. rewrite Ec in T, Hoi.
  destruct T as [T _]. destruct (T x Hx Hd) as (i & -> & Hi & HG). exists i. split; [exact Hi|]. split; [|exact HG].
  destruct (Hoi i eq_refl) as (_ & [(_ & Y)|(Y & _)]); [exact Y|lia].
Qed.

Theorem core_data_needs_grant : forall t ops c o,
  let s := fst (exec t ops) in let outs := snd (exec t ops) in
  In o outs -> Core.has_data val upd c o = true ->
  exists i, i < Core.next val upd s /\ Core.owner (insts s i) = c /\ In (Core.MqAccess upd i true) ops.
Proof.
  intros t ops c o s outs. subst s outs.
  assert (K : d_E (fst (exec t ops)) (fun i => In (Core.MqAccess upd i true) ops) /\
              (In o (snd (exec t ops)) -> has_data c o = true ->
               exists i, i < next (fst (exec t ops)) /\ owner (insts (fst (exec t ops)) i) = c /\ In (Core.MqAccess upd i true) ops)).
  { induction ops as [|o1 ops IH] using rev_ind.
    - split; [|intros []]. intros j. cbn. repeat split; try discriminate. intros X. exfalso. apply X. reflexivity.
    - destruct (exec_snoc' val upd app norm d t ops o1) as [-> ->]. pose proof (wf_exec t ops) as W. destruct IH as [IE ID].
      assert (IE' : d_E (fst (exec t ops)) (fun i => In (Core.MqAccess upd i true) (ops ++ [o1]))).
      { intros j. destruct (IE j) as (A & B & C). repeat split; intros X; apply in_or_app; left; auto. }
      split.
      + apply d_E_step; try assumption. intros j ->. apply in_or_app. right. left. reflexivity.
      + intros Hin Hd.
        assert (X : exists i, i < next (fst (exec t ops)) /\ owner (insts (fst (exec t ops)) i) = c /\ In (Core.MqAccess upd i true) (ops ++ [o1])).
        { apply in_app_or in Hin as [Hin|Hin].
          - destruct (ID Hin Hd) as (i & A & B & C). exists i. repeat split; try assumption. apply in_or_app. left. exact C.
          - apply (d_data_step _ o1 _ c o W IE' Hin Hd). }
        destruct X as (i & A & B & C). exists i. pose proof (d_next_mono (fst (exec t ops)) o1). split; [lia|].
        rewrite d_owner_frame by assumption. auto. }
  apply K.
Qed.

Notation IReacc := (Conv.IReacc val upd).
Notation CReacc := (Conv.CReacc upd).
Definition d_noreacc (σ : cst) : Prop := ~ In IReacc (cqe σ) /\ forall j, ~ In CReacc (ccq (csubs σ j)).

Lemma d_pushall_noreacc : forall f l it j, it <> CReacc -> ~ In CReacc (ccq (f j)) -> ~ In CReacc (ccq (Conv.push_all val upd f l it j)).
Proof.
  intros f l it j Hit H. unfold Conv.push_all. destruct (_ && _); [|exact H]. unfold Conv.push_c. cbn [Conv.cq].
  intros X. apply in_app_or in X as [X|[X|[]]]; [apply H; exact X|congruence].
Qed.
(* reaccess items enter the resource's queue by the service event only, and a subscriber's queue from the resource's *)
Lemma d_noreacc_step : forall σ a, a <> Conv.SvcReacc upd -> d_noreacc σ -> d_noreacc (cstep σ a).
Proof.
  intros σ a Ha [H1 H2]. split.
  - intros X. apply qe_step in X as [X|X]; [exact (H1 X)|].
    destruct a; cbn [CoreProofsABC.intro_by] in X; try exact (Ha eq_refl); try discriminate X; try contradiction;
      destruct X as [z X]; discriminate X.
  - intros j. destruct a as [u| | |n| |k|k cl| |k|k n|k n|k];
      try (rewrite cq_other by (split; [discriminate|intros; discriminate]); apply H2).
    + cbn [Conv.step]. destruct (cqe σ) as [|[u| |v|s1|s1| |n1] q] eqn:Eqe; cbn [Conv.subs]; try apply H2.
      * destruct (Conv.rs_loaded val upd σ); [destruct (norm u (Conv.rs_val val upd σ))|]; cbn [Conv.subs]; try apply H2.
        apply d_pushall_noreacc; [discriminate|apply H2].
      * destruct (Conv.rs_loaded val upd σ); [apply d_pushall_noreacc; [discriminate|]|]; apply H2.
      * apply d_pushall_noreacc; [discriminate|apply H2].
      * destruct (_ && _); [|apply H2]. unfold Conv.set_sub. destruct (Nat.eqb j s1); [|apply H2]. cbn [Conv.push_c Conv.cq].
        intros X. apply in_app_or in X as [X|[X|[]]]; [exact (H2 _ X)|discriminate X].
      * exfalso. apply H1. left. reflexivity.
    + destruct (Nat.eq_dec j k) as [->|Hne]; [rewrite cq_runc|rewrite cq_runc_other by exact Hne; apply H2].
      intros X. apply (H2 k). destruct (ccq (csubs σ k)); [exact X|right; exact X].
Qed.

Lemma d_noreacc_fold : forall acts σ, ~ In (Conv.SvcReacc upd) acts -> d_noreacc σ -> d_noreacc (cfold acts σ).
Proof.
  induction acts as [|a acts IH]; intros σ H N; cbn [fold_left]; [exact N|].
  apply IH; [intros X; apply H; right; exact X|]. apply d_noreacc_step; [intros ->; apply H; left; reflexivity|exact N].
Qed.

(* an instance that has dropped no request and never seen a re-access trigger *)
Definition d_qi (y : Core.inst) : Prop := lost y = [] /\ reflag y = false /\ ~ In AVal (acb y).

Section d_Task4.
Variables (c i : nat).
Notation remove_direct := (Core.remove_direct val upd app norm i).
Notation load_access := (Core.load_access val upd c i).
Notation respond := (Core.respond val upd app norm c i).
Notation on_ready := (Core.on_ready val upd app norm c i).
Notation run_cb := (Core.run_cb val upd app norm c i).

(* with no request waiting for the resource, disposal drops none *)
Lemma d_qi_remove : forall k n, d_qi (ty k) -> rcb (ty k) = [] -> d_qi (ty (remove_direct k n)) /\ rcb (ty (remove_direct k n)) = [].
Proof.
  intros k n Q Hr. unfold Core.remove_direct. cbv zeta. destruct (Nat.eqb (direct (tx k)) 0); [auto|].
  destruct (Nat.eqb _ 0); [|auto]. unfold Core.dispose_t. destruct (Core.gone_ val upd i _); [auto|]. cbv zeta. d_tkred.
  destruct Q as (Q1 & Q2 & Q3). unfold d_qi. cbn [Core.upd_y Core.lost Core.rcb Core.reflag Core.acb]. rewrite Q1, Hr. auto.
Qed.
Lemma d_qi_load : forall k id, d_qi (ty k) -> d_qi (ty (load_access k (AReq id))).
Proof.
  intros k id (Q1 & Q2 & Q3). unfold Core.load_access. cbv zeta.
  assert (Hn : ~ In AVal (acb (ty k) ++ [AReq id])) by (intros X; apply in_app_or in X as [X|[X|[]]]; [auto|discriminate]).
  destruct (inflight (ty k)); repeat split; assumption.
Qed.
Lemma d_qi_respond : forall k ids, reflag (ty k) = false -> ty (respond k ids) = ty k.
Proof.
  intros k ids H. unfold Core.respond. destruct ids as [|id r]; [reflexivity|]. cbv zeta. d_tkred.
  destruct (Core.sent_ val upd i k); [reflexivity|]. d_tkred. rewrite H. reflexivity.
Qed.
Lemma d_qi_onready : forall k id, d_qi (ty k) -> d_qi (ty (on_ready k id)).
Proof.
  intros k id Q. unfold Core.on_ready. cbv zeta. destruct (Core.loaded_ val upd i k); [rewrite d_qi_respond; [exact Q|apply Q]|exact Q].
Qed.
(* the waiting requests run on the verdict g; a refusal finds none waiting for the resource *)
Lemma d_qi_fold : forall g l k, ~ In AVal l -> d_qi (ty k) -> (g = false -> rcb (ty k) = []) ->
  d_qi (ty (fold_left (run_cb g) l k)).
Proof.
  intros g l. induction l as [|b l IH]; intros k Hl Q Hr; cbn [fold_left]; [exact Q|].
  destruct b as [id|]; [|exfalso; apply Hl; left; reflexivity].
  assert (Hl' : ~ In AVal l) by (intros X; apply Hl; right; exact X). cbn [Core.run_cb]. destruct g.
  - apply IH; [exact Hl'| |discriminate]. destruct (Core.gone_ val upd i k); [exact Q|apply d_qi_onready, Q].
  - destruct (d_qi_remove (emit k [Core.OErr val upd c id Core.EDenied]) 1 Q (Hr eq_refl)) as [A B]. apply IH; auto.
Qed.
End d_Task4.

Definition d_isbad (x : Core.qitem) : bool := match x with Core.QUnsub _ _ | Core.QDispose | Core.QToken _ => true | _ => false end.
Definition d_quiet_op (o : Core.op upd) : Prop :=
  match o with Core.CUnsub _ _ _ _ | Core.Disc _ _ | Core.ConnToken _ _ _ | Core.MqReacc _ => False | _ => True end.
Record d_Q (s : st) : Prop := {
  d_q_items : forall c x, In x (cqueue (conns s c)) -> d_isbad x = false;
  d_q_noreacc : d_noreacc (cv s);
  d_q_inst : forall j, d_qi (insts s j)
}.

Lemma d_Q_ng : forall s o, nongrant o -> d_quiet_op o -> d_Q s -> d_Q (fst (step s o)).
Proof.
  intros s o Hng Hq [P1 P2 P3]. pose proof (nongrant_step s o Hng) as N. constructor.
  - intros c' x H. rewrite (nc_queue (ng_conn N c')) in H. apply in_app_or in H as [H|H]; [apply (P1 _ _ H)|].
    apply d_pushed_in in H. destruct x; try reflexivity; [destruct H as [-> _]|subst o|destruct H as [-> _]]; destruct Hq.
  - rewrite step_cv. apply d_noreacc_fold; [|exact P2]. intros X.
    destruct o as [c id|c id k|c|c t|i g| |u| | | |c]; cbn [Core.acts_of d_quiet_op] in X, Hq; try contradiction;
      try (exfalso; eapply Hng; reflexivity);
      repeat match type of X with context [if ?b then _ else _] => destruct b end; cbn in X; intuition discriminate.
  - intros j. destruct (ng_insts N j) as [-> | (g & _ & ->)]; apply P3.
Qed.

Lemma d_task_qi : forall s c, g_I s -> d_Q s -> let '(k, oi, nx, ms) := conn_task s c in forall i, oi = Some i -> d_qi (ty k).
Proof.
  intros s c GI [P1 P2 P3].
  assert (Hh : forall it q, cqueue (conns s c) = it :: q -> d_isbad it = false) by (intros it q E; apply (P1 c); rewrite E; left; reflexivity).
  destruct (ct_spec s c) as [Eq|id q Eq Ec|id q i Eq Ec|id cnt q i Eq Ec|id cnt q Eq Ec|t q i Eq Ec|t q Eq Ec|i q Eq Eg|i q Eq Eg|i q Eq|q Eq];
    intros i0 E0; try discriminate E0; try (injection E0 as <-); try discriminate (Hh _ _ Eq).
  - apply d_qi_load. repeat split; auto.
  - unfold CoreProofsABC.body_req. cbv zeta. destruct (acc (insts s i)) as [[|]|] eqn:Ea.
    + apply d_qi_onready, P3.
    + exfalso. destruct (I_cur _ _ _ _ _ _ _ GI Ec) as (_ & _ & _ & HV). exact (g_v_accf _ _ _ _ _ _ _ HV Ea).
    + apply d_qi_load, P3.
  - apply P3.
  - (* an answer finds no request waiting for the resource: none is let wait before the verdict is there *)
    unfold CoreProofsABC.body_access. cbv zeta. destruct (ans (insts s i)) as [g|] eqn:Ea; [|apply P3].
    destruct (g_i_q _ _ _ _ _ GI c (QAccess i)) as [Hi _]; [rewrite Eq; left; reflexivity|].
    pose proof (g_i_live _ _ _ _ _ GI i Hi Eg) as HV.
    assert (Hr : rcb (insts s i) = []).
    { destruct (rcb (insts s i)) eqn:Er; [reflexivity|]. exfalso. destruct (g_v_rcbn _ _ _ _ _ _ _ HV) as [X _]; [rewrite Er; discriminate|].
      apply X, (g_v_acb _ _ _ _ _ _ _ HV), (g_v_infl _ _ _ _ _ _ _ HV), (g_v_ans _ _ _ _ _ _ _ HV). rewrite Ea. discriminate. }
    destruct (P3 i) as (Q1 & Q2 & Q3). apply d_qi_fold; [exact Q3|repeat split; auto|intros _; exact Hr].
  - unfold CoreProofsABC.body_sub. cbv zeta. destruct P2 as [_ P2]. specialize (P2 i).
    destruct (ccq (csubs (cv s) i)) as [|[|e|] r]; d_tkred; try apply P3.
    + destruct (gone (csubs (cv s) i)); [apply P3|]. rewrite d_qi_respond; [|apply P3]. apply P3.
    + exfalso. apply P2. left. reflexivity.
Qed.

Lemma d_Q_grant : forall s c, g_I s -> d_Q s -> d_Q (fst (step s (GrantConn c))).
Proof.
  intros s c GI Q. apply grant_ind; [intros _; exact Q|]. intros it q k oi nx ms _ Ec [Hs Hq _ Hc].
  pose proof (d_task_qi s c GI Q) as Ty. rewrite Ec in Ty. destruct Q as [P1 P2 P3]. cbn [fst]. constructor; d_proj.
  - intros c' x H. destruct (Nat.eq_dec c' c) as [->|Hcc].
    + rewrite set_conn_eq, Hq in H. apply (P1 c). destruct (cqueue (conns s c)); [destruct H|right; exact H].
    + rewrite set_conn_neq in H by exact Hcc. apply (P1 c' x H).
  - rewrite Hs. apply d_noreacc_fold; [|exact P2]. intros Hin.
    destruct Hc as [P|[N|D]].
    + exact (proj1 (Forall_forall _ _) (tp_acts P) _ Hin).
    + rewrite (tn_acts N) in Hin. destruct Hin as [X|[]]. discriminate X.
    + rewrite (td_acts D) in Hin. apply in_map_iff in Hin as (j & X & _). discriminate X.
  - intros j. destruct oi as [i|]; [|apply P3]. unfold Core.set_inst. destruct (Nat.eqb_spec j i) as [->|]; [|apply P3]. apply (Ty i eq_refl).
Qed.

Theorem core_nothing_dropped_without_unsubscribe : forall t ops c,
  (forall o, In o ops -> match o with Core.CUnsub _ _ _ _ | Core.Disc _ _ | Core.ConnToken _ _ _ | Core.MqReacc _ => False | _ => True end) ->
  Core.dropped val upd (fst (exec t ops)) c = [].
Proof.
  intros t ops c H.
  assert (N : d_Q (fst (exec t ops))).
  { induction ops as [|o ops IH] using rev_ind.
    - constructor; cbn; intros; try contradiction; repeat split; auto.
    - destruct (exec_snoc' val upd app norm d t ops o) as [-> _].
      assert (IQ : d_Q (fst (exec t ops))) by (apply IH; intros o' Ho'; apply H; apply in_or_app; left; exact Ho').
      assert (Hq : d_quiet_op o) by (apply (H o); apply in_or_app; right; left; reflexivity).
      destruct (grant_dec o) as [[c0 ->]|Hng]; [apply d_Q_grant; [apply g_IJ_exec|exact IQ]|apply d_Q_ng; assumption]. }
  destruct N as [_ _ N]. unfold Core.dropped. induction (insts_of (fst (exec t ops)) c) as [|i l IH]; [reflexivity|].
  cbn [flat_map]. destruct (N i) as (-> & _). exact IH.
Qed.

End CoreProofs.

Theorem core_every_request_answered_refuted :
  exists ops : list (Core.op nat),
    let s := fst (Core.exec nat nat (fun u v => u + v) (fun u v => Some u) 0 0 ops) in
    let outs := snd (Core.exec nat nat (fun u v => u + v) (fun u v => Some u) 0 0 ops) in
    NoDup (Core.reqs nat 0 ops) /\ Core.reqs nat 0 ops = [1; 2] /\ Core.resps nat nat 0 outs = [2] /\
    Core.dropped nat nat s 0 = [1] /\ Core.cqueue (Core.conns nat nat s 0) = [] /\ Conv.qe nat nat (Core.cv nat nat s) = [] /\
    Core.disc (Core.conns nat nat s 0) = false.
Proof.
  exists [Core.CSub nat 0 1; Core.GrantConn nat 0; Core.CUnsub nat 0 2 1; Core.GrantConn nat 0; Core.GrantEs nat; Core.MqGet nat;
          Core.GrantEs nat; Core.GrantConn nat 0; Core.GrantEs nat; Core.MqAccess nat 0 true; Core.GrantEs nat; Core.GrantConn nat 0].
  vm_compute. repeat split.
  repeat constructor; cbn; intuition discriminate.
Qed.

Print Assumptions core_responses.
Print Assumptions core_nothing_dropped_without_unsubscribe.
Print Assumptions core_every_request_answered_refuted.
Print Assumptions core_data_needs_grant.
Print Assumptions core_cleanup.
Print Assumptions core_nothing_after_close.
