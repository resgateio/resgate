(* The integrated model Comp/Core.v: execution along a history and the refinement of Comp/Conv.v; connection tasks as programs
   over four primitives, with one induction over the handlers for every relation between the task before and after; the case
   analysis of the task a grant runs; what Conv actions do to a subscriber, which subscription a task serves (SH) and what the
   cache worker appends to the connection queues; C09's get-once theorem (GO); the invariant of the reachable states (g_I, g_J)
   with C06's theorems; and the client's ledger against the gateway's:
   C08 (count of direct subscriptions), C03 (the copy rebuilt from frames), C01 (convergence), with the histories that refute
   the statements without their premises.  DESIGN.md section 3.1 says how the parts hang together. *)
From Coq Require Import List Arith Lia Bool.
From RG Require Import Comp.Conv Comp.Core.
Import ListNotations.

Section CoreProofs.
Variables (val upd : Type) (app : upd -> val -> val) (norm : upd -> val -> option upd) (d : val).
Hypothesis norm_none : forall u v, norm u v = None -> app u v = v.
Hypothesis norm_some : forall u v u', norm u v = Some u' -> app u' v = app u v.

Notation csubs := (Conv.subs val upd).
Notation exec := (Core.exec val upd app norm d).
Notation cv := (Core.cv val upd).
Notation conns := (Core.conns val upd).
Notation insts := (Core.insts val upd).
Notation client := (Core.client val upd app).
Notation quiescent := (Core.quiescent val upd).
Notation no_underflow := (Core.no_underflow val upd app).

Notation step := (Core.step val upd app norm).
Notation cstep := (Conv.step val upd app norm).
Notation acts_of := (Core.acts_of val upd app norm).
Notation conn_task := (Core.conn_task val upd app norm).
Notation next := (Core.next val upd).
Notation getreq := (Core.getreq val upd).
Notation mqsub := (Core.mqsub val upd).
Notation exec1 := (Core.exec1 val upd app norm).
Notation st_ := (Core.st val upd).
Notation out_ := (Core.out val upd).
Notation act_ := (Conv.action upd).
Notation cst := (Conv.st val upd).
Notation CInv := (Conv.Inv val upd app).
Notation tk_ := (Core.tk val upd).
Notation ts := (Core.ts val upd).
Notation ta := (Core.ta val upd).
Notation tx := (Core.tx val upd).
Notation ty := (Core.ty val upd).
Notation to := (Core.to val upd).
Notation actk := (Core.act val upd app norm).
Notation emit := (Core.emit val upd).
Notation setx := (Core.setx val upd).
Notation sety := (Core.sety val upd).
Notation me := (Core.me val upd).
Notation gone_ := (Core.gone_ val upd).
Notation loaded_ := (Core.loaded_ val upd).
Notation sent_ := (Core.sent_ val upd).
Notation flag_ := (Core.flag_ val upd).
Notation dispose_t := (Core.dispose_t val upd app norm).
Notation remove_direct := (Core.remove_direct val upd app norm).
Notation unsubscribe_direct := (Core.unsubscribe_direct val upd app norm).
Notation load_access := (Core.load_access val upd).
Notation handle_reaccess := (Core.handle_reaccess val upd app norm).
Notation reaccess := (Core.reaccess val upd app norm).
Notation respond := (Core.respond val upd app norm).
Notation on_ready := (Core.on_ready val upd app norm).
Notation unqueue_reaccess := (Core.unqueue_reaccess val upd app norm).
Notation run_cb := (Core.run_cb val upd app norm).
Notation K0 s x y := (Core.Build_tk val upd (cv s) [] x y []).

Notation sgone x := (Conv.gone val upd x).
Notation ssent x := (Conv.sent val upd x).
Notation ssubscribed x := (Conv.subscribed val upd x).
Notation sloaded x := (Conv.loaded val upd x).
Notation scq x := (Conv.cq val upd x).
Notation sflag x := (Conv.flag val upd x).
Notation ssval x := (Conv.sval val upd x).
Notation ssver x := (Conv.sver val upd x).
Notation seq_ x := (Conv.eq val upd x).
Notation sclosed x := (Conv.closed val upd x).
Notation cqe σ := (Conv.qe val upd σ).

Notation OResp := (Core.OResp val upd).
Notation OErr := (Core.OErr val upd).
Notation OAck := (Core.OAck val upd).
Notation OAccessReq := (Core.OAccessReq val upd).
Notation OMqSub := (Core.OMqSub val upd).
Notation OGetReq := (Core.OGetReq val upd).
Notation OConnUnsub := (Core.OConnUnsub val upd).

Lemma exec_snoc t ops o : exec t (ops ++ [o]) = exec1 (exec t ops) o.
Proof. unfold Core.exec. rewrite fold_left_app. reflexivity. Qed.
Lemma exec_snoc' t ops o :
  fst (exec t (ops ++ [o])) = fst (step (fst (exec t ops)) o) /\
  snd (exec t (ops ++ [o])) = snd (exec t ops) ++ snd (step (fst (exec t ops)) o).
Proof.
  rewrite exec_snoc. destruct (exec t ops) as [s outs]. cbn [Core.exec1 fst snd].
  destruct (step s o) as [s' o']. split; reflexivity.
Qed.

Lemma run_fold : forall ops s outs0,
  fst (Core.run val upd app norm s ops) = fst (fold_left exec1 ops (s, outs0)) /\
  outs0 ++ concat (snd (Core.run val upd app norm s ops)) = snd (fold_left exec1 ops (s, outs0)).
Proof.
  induction ops as [|o ops IH]; intros s outs0.
  - cbn. rewrite app_nil_r. split; reflexivity.
  - cbn [Core.run fold_left]. unfold Core.exec1 at 2 4.
    destruct (step s o) as [s1 o1] eqn:E.
    specialize (IH s1 (outs0 ++ o1)). destruct (Core.run val upd app norm s1 ops) as [s2 outs].
    cbn [fst snd concat] in *. rewrite app_assoc. exact IH.
Qed.

Theorem run_exec : forall t ops,
  fst (Core.run val upd app norm (Core.init val upd d t) ops) = fst (exec t ops) /\
  concat (snd (Core.run val upd app norm (Core.init val upd d t) ops)) = snd (exec t ops).
Proof. intros t ops. exact (run_fold ops (Core.init val upd d t) []). Qed.

Lemma step_cv s o : cv (fst (step s o)) = fold_left cstep (acts_of s o) (cv s).
Proof.
  unfold Core.step. destruct o as [c id|c id k|c|c t|i g| |u| | | |c]; cbn [Core.acts_of]; try reflexivity;
    try (match goal with |- context [if ?b then _ else _] => destruct b end; reflexivity).
  destruct (cqueue (conns s c)) as [|it q] eqn:Eq.
  - unfold Core.conn_task. rewrite Eq. reflexivity.
  - destruct (conn_task s c) as [[[k oi] nx] ms]. reflexivity.
Qed.

Theorem core_reachable_conv : forall t ops, exists acts, cv (fst (exec t ops)) = Conv.run val upd app norm d t acts.
Proof.
  intros t ops. induction ops as [|o ops IH] using rev_ind.
  - exists []. reflexivity.
  - destruct IH as [acts IH]. destruct (exec_snoc' t ops o) as [-> _].
    exists (acts ++ acts_of (fst (exec t ops)) o). rewrite step_cv, IH. unfold Conv.run. rewrite fold_left_app. reflexivity.
Qed.

Theorem core_conv_inv : forall t ops, Conv.Inv val upd app (cv (fst (exec t ops))).
Proof.
  intros t ops. destruct (core_reachable_conv t ops) as [acts ->].
  apply (Conv.run_inv val upd app norm d norm_none norm_some).
Qed.

Lemma cstep_inv σ a : CInv σ -> CInv (cstep σ a).
Proof. apply (Conv.step_inv val upd app norm norm_none norm_some). Qed.
Lemma fold_keeps {A B} (P : A -> Prop) (f : A -> B -> A) : (forall a b, P a -> P (f a b)) ->
  forall l a, P a -> P (fold_left f l a).
Proof. intros H l. induction l as [|b l IH]; intros a Ha; [exact Ha|]. cbn [fold_left]. apply IH, H, Ha. Qed.
Lemma acts_inv σ acts : CInv σ -> CInv (fold_left cstep acts σ).
Proof. exact (fold_keeps CInv cstep cstep_inv acts σ). Qed.
Lemma step_inv' s o : CInv (cv s) -> CInv (cv (fst (step s o))).
Proof. intros H. rewrite step_cv. apply acts_inv, H. Qed.

Lemma exec_ind (P : st_ -> list out_ -> Prop) t :
  P (Core.init val upd d t) [] ->
  (forall ops o, let s := fst (exec t ops) in let outs := snd (exec t ops) in
     P s outs -> P (fst (step s o)) (outs ++ snd (step s o))) ->
  forall ops, P (fst (exec t ops)) (snd (exec t ops)).
Proof.
  intros H0 Hs ops. induction ops as [|o ops IH] using rev_ind; [exact H0|].
  destruct (exec_snoc' t ops o) as [-> ->]. exact (Hs ops o IH).
Qed.
Lemma exec_state_ind (P : st_ -> Prop) t :
  P (Core.init val upd d t) ->
  (forall ops o, let s := fst (exec t ops) in P s -> P (fst (step s o))) ->
  forall ops, P (fst (exec t ops)).
Proof.
  intros H0 Hs. apply (exec_ind (fun s _ => P s) t H0 Hs).
Qed.

(* Every handler of Comp/Core.v composes the four primitives of a task ([act emit setx sety]) under tests on the task
   state.  So a relation between the task before and after that is reflexive, transitive and holds of the primitive steps
   the handlers make holds of every handler:
   the one induction over the handlers below serves every relation of that kind ([ext] here, and the finer ones of the other
   files).  Each lemma depends on the hypotheses for the steps its handler can make, and on no other. *)
Definition is_mild (i : nat) (a : act_) : Prop :=
  match a with Conv.StartQueue _ j | Conv.Respond _ j _ | Conv.Unqueue _ j _ => j = i | _ => False end.
(* a frame for connection c other than the response that carries the resource *)
Definition hframe (c : nat) (o : out_) : Prop :=
  match o with
  | Core.OResp _ _ c' _ None | Core.OErr _ _ c' _ _ | Core.OEvent _ _ c' _ | Core.OCustom _ _ c' | Core.OUnsubEv _ _ c' => c' = c
  | _ => False
  end.

Lemma hframe_proc_o c p e : Forall (hframe c) (snd (Core.proc_o val upd app c p e)).
Proof.
  destruct p as [ver v]. unfold Core.proc_o. destruct (Nat.eqb ver (Conv.e_ver upd e)); [|constructor].
  destruct (Conv.e_upd upd e); cbn [snd]; repeat constructor.
Qed.
Lemma hframe_replay_o c l : forall p, Forall (hframe c) (Core.replay_o val upd app c p l).
Proof.
  induction l as [|e l IH]; intros p; cbn [Core.replay_o]; [constructor|].
  pose proof (hframe_proc_o c p e) as Hp. destruct (Core.proc_o val upd app c p e) as [p' o]. cbn [snd] in Hp.
  apply Forall_app. split; [exact Hp|apply IH].
Qed.
Lemma hframe_map_resp c (l : list nat) : Forall (hframe c) (map (fun id' => OResp c id' None) l).
Proof. induction l; cbn [map]; repeat constructor; assumption. Qed.

Section Handlers.
Variables (c i : nat) (R : tk_ -> tk_ -> Prop).
Hypotheses (R_refl : forall k, R k k) (R_trans : forall k1 k2 k3, R k1 k2 -> R k2 k3 -> R k1 k3)
  (R_mild : forall k a, is_mild i a -> R k (actk k a))
  (R_sety : forall k y, owner y = owner (ty k) -> ans y = ans (ty k) -> R k (sety k y))
  (R_frames : forall k o, Forall (hframe c) o -> R k (emit k o))
  (R_req : forall k, R k (emit k [OAccessReq c i (tok (tx k))])).

(* peels the outermost primitive off the task on the right and discharges it by the hypothesis for that primitive *)
Ltac hstep :=
  lazymatch goal with
  | |- R ?k ?k => apply R_refl
  | |- R _ (Core.sety _ _ _ _) => eapply R_trans; [|apply R_sety; reflexivity]
  | |- R _ (Core.act _ _ _ _ _ _) => eapply R_trans; [|apply R_mild; reflexivity]
  | |- R _ (Core.emit _ _ ?K [Core.OAccessReq _ _ _ _ _]) => eapply R_trans; [|exact (R_req K)]
  | |- R _ (Core.emit _ _ _ _) =>
      eapply R_trans; [|apply R_frames; first [apply hframe_replay_o|apply hframe_map_resp|repeat constructor]]
  end.

Lemma h_load k b : R k (load_access c i k b).
Proof. unfold Core.load_access. cbv zeta. destruct (inflight (ty k)); repeat hstep. Qed.
Lemma h_hreacc k : R k (handle_reaccess c i k).
Proof.
  unfold Core.handle_reaccess. cbv zeta. match goal with |- context [if ?b then _ else _] => destruct b end; [repeat hstep|].
  eapply R_trans; [|apply h_load]. repeat hstep.
Qed.
Lemma h_reacc k : R k (reaccess c i k).
Proof. unfold Core.reaccess. destruct (gone_ i k); [apply R_refl|]. destruct (flag_ i k); [repeat hstep|apply h_hreacc]. Qed.
Lemma h_unqueue k : R k (unqueue_reaccess c i k).
Proof.
  unfold Core.unqueue_reaccess. cbv zeta.
  match goal with |- context [if gone_ i ?K then _ else _] => destruct (gone_ i K) end; [repeat hstep|].
  match goal with |- context [if reflag ?y then _ else _] => destruct (reflag y) end.
  - eapply R_trans; [|apply h_hreacc]. repeat hstep.
  - unfold Core.drained. repeat hstep.
Qed.

(* the one frame that carries the resource; the lemmas above, and the two _denied ones below, do not rest on it: they serve
   a relation that excludes data frames as well *)
Hypothesis R_data : forall k id v, R k (emit k [OResp c id (Some v)]).

Lemma h_respond k ids : R k (respond c i k ids).
Proof.
  unfold Core.respond. destruct ids as [|id r]; [apply R_refl|]. cbv zeta. hstep.
  destruct (sent_ i k); [repeat hstep|]. cbn [Core.emit Core.ty]. destruct (reflag (ty k)).
  - eapply R_trans; [|apply h_hreacc]. hstep. apply R_data.
  - unfold Core.drained. hstep. hstep. apply R_data.
Qed.
Lemma h_ready k id : R k (on_ready c i k id).
Proof. unfold Core.on_ready. destruct (loaded_ i k); [apply h_respond|]. cbv zeta. repeat hstep. Qed.
Lemma h_run_cb_granted k b : R k (run_cb c i true k b).
Proof. destruct b as [id|]; cbn [Core.run_cb]; [destruct (gone_ i k); [apply R_refl|apply h_ready]|apply h_unqueue]. Qed.

Hypotheses (R_dispose : forall k, R k (actk k (Conv.Dispose upd i false)))
  (R_setx : forall k cu n, R k (setx k (Core.with_cd (tx k) cu n))).

Lemma h_dispose k : R k (dispose_t i k).
Proof.
  unfold Core.dispose_t. destruct (gone_ i k); [apply R_refl|]. cbv zeta.
  eapply R_trans; [|apply R_setx]. hstep. apply R_dispose.
Qed.
Lemma h_remove k n : R k (remove_direct i k n).
Proof.
  unfold Core.remove_direct. destruct (Nat.eqb (direct (tx k)) 0); [apply R_refl|]. cbv zeta.
  match goal with |- context [if ?b then _ else _] => destruct b end; [eapply R_trans; [|apply h_dispose]|]; apply R_setx.
Qed.
Lemma h_unsubd k : R k (unsubscribe_direct c i k).
Proof. unfold Core.unsubscribe_direct. destruct (Nat.ltb 0 (direct (tx k))); [|apply R_refl]. hstep. apply h_remove. Qed.
Lemma h_run_cb_denied k b : R k (run_cb c i false k b).
Proof.
  destruct b as [id|]; cbn [Core.run_cb].
  - eapply R_trans; [|apply h_remove]. repeat hstep.
  - eapply R_trans; [apply h_unsubd|apply h_unqueue].
Qed.
Lemma h_run_cbs_denied l : forall k, R k (fold_left (run_cb c i false) l k).
Proof. induction l as [|b l IH]; intros k; [apply R_refl|]. cbn [fold_left]. eapply R_trans; [apply h_run_cb_denied|apply IH]. Qed.

Lemma h_run_cb g k b : R k (run_cb c i g k b).
Proof. destruct g; [apply h_run_cb_granted|apply h_run_cb_denied]. Qed.
Lemma h_run_cbs g l : forall k, R k (fold_left (run_cb c i g) l k).
Proof. induction l as [|b l IH]; intros k; [apply R_refl|]. cbn [fold_left]. eapply R_trans; [apply h_run_cb|apply IH]. Qed.
End Handlers.

(* [m]: the handler is mild: it does not dispose the subscription (its actions are [is_mild]); in [ext], [m] also says
   that the connection record is left alone *)
Definition hact (m : bool) (i : nat) (a : act_) : Prop :=
  match a with
  | Conv.Dispose _ j cl => j = i /\ cl = false /\ m = false
  | Conv.StartQueue _ j | Conv.Respond _ j _ | Conv.Unqueue _ j _ => j = i
  | _ => False
  end.
Definition hout (c i : nat) (o : out_) : Prop :=
  match o with
  | Core.OResp _ _ c' _ _ | Core.OErr _ _ c' _ _ | Core.OAck _ _ c' _ _ | Core.OEvent _ _ c' _ | Core.OCustom _ _ c'
  | Core.OUnsubEv _ _ c' => c' = c
  | Core.OAccessReq _ _ c' i' _ => c' = c /\ i' = i
  | _ => False
  end.

(* k' is k after some handler actions on instance i and some frames to connection c *)
Record ext (m : bool) (c i : nat) (k k' : tk_) : Prop := {
  e_acts : exists la, ta k' = ta k ++ la /\ ts k' = fold_left cstep la (ts k) /\ Forall (hact m i) la;
  e_outs : exists lo, to k' = to k ++ lo /\ Forall (hout c i) lo;
  e_tx : m = true -> tx k' = tx k;
  e_q : cqueue (tx k') = cqueue (tx k);
  e_disc : disc (tx k') = disc (tx k);
  e_tokset : tokset (tx k') = tokset (tx k);
  e_tok : tok (tx k') = tok (tx k);
  e_own : owner (ty k') = owner (ty k) }.

Lemma ext_refl m c i k : ext m c i k k.
Proof.
  constructor; try reflexivity.
  - exists []. rewrite app_nil_r. repeat split. constructor.
  - exists []. rewrite app_nil_r. repeat split. constructor.
Qed.
Lemma ext_trans m c i k1 k2 k3 : ext m c i k1 k2 -> ext m c i k2 k3 -> ext m c i k1 k3.
Proof.
  intros [(la&A1&A2&A3) (lo&B1&B2) T C D E F G] [(la'&A1'&A2'&A3') (lo'&B1'&B2') T' C' D' E' F' G'].
  constructor; try congruence.
  - exists (la ++ la'). rewrite A1', A1, A2', A2, fold_left_app, app_assoc. repeat split. apply Forall_app; auto.
  - exists (lo ++ lo'). rewrite B1', B1, app_assoc. split; [reflexivity|]. apply Forall_app; auto.
  - intros Hm. rewrite (T' Hm). exact (T Hm).
Qed.
Lemma ext_weaken m c i k k' : ext m c i k k' -> ext false c i k k'.
Proof.
  intros [(la&A1&A2&A3) B T C D E F G]. constructor; auto; [|discriminate].
  exists la. repeat split; auto. eapply Forall_impl; [|exact A3]. intros a. destruct a; cbn [hact]; auto. intros (X&Y&Z). subst m. auto.
Qed.
Lemma x_act m c i k K a : ext m c i k K -> hact m i a -> ext m c i k (actk K a).
Proof.
  intros H Ha. apply (ext_trans m c i k K); [exact H|]. constructor; try reflexivity.
  - exists [a]. repeat split. constructor; [exact Ha|constructor].
  - exists []. cbn [Core.act Core.to]. rewrite app_nil_r. repeat split. constructor.
Qed.
Lemma x_emit m c i k K o : ext m c i k K -> Forall (hout c i) o -> ext m c i k (emit K o).
Proof.
  intros H Ho. apply (ext_trans m c i k K); [exact H|]. constructor; try reflexivity.
  - exists []. cbn [Core.emit Core.ta]. rewrite app_nil_r. repeat split. constructor.
  - exists o. split; [reflexivity|exact Ho].
Qed.
Lemma x_setx c i k K x : ext false c i k K -> cqueue x = cqueue (tx K) -> disc x = disc (tx K) ->
  tokset x = tokset (tx K) -> tok x = tok (tx K) -> ext false c i k (setx K x).
Proof.
  intros H H1 H2 H3 H4. apply (ext_trans false c i k K); [exact H|]. constructor; try reflexivity; try assumption; try discriminate.
  - exists []. cbn [Core.setx Core.ta]. rewrite app_nil_r. repeat split. constructor.
  - exists []. cbn [Core.setx Core.to]. rewrite app_nil_r. repeat split. constructor.
Qed.
Lemma x_sety m c i k K y : ext m c i k K -> owner y = owner (ty K) -> ext m c i k (sety K y).
Proof.
  intros H H1. apply (ext_trans m c i k K); [exact H|]. constructor; try reflexivity; try assumption.
  - exists []. cbn [Core.sety Core.ta]. rewrite app_nil_r. repeat split. constructor.
  - exists []. cbn [Core.sety Core.to]. rewrite app_nil_r. repeat split. constructor.
Qed.

Ltac xt :=
  repeat first
    [ apply ext_refl
    | assumption
    | apply x_setx; [ | reflexivity | reflexivity | reflexivity | reflexivity ]
    | apply x_sety; [ | reflexivity ]
    | apply x_emit; [ | repeat constructor ]
    | apply x_act; [ | cbn [hact]; auto ] ].

Lemma hframe_hout c i o : hframe c o -> hout c i o.
Proof. destruct o as [| | |c' id [v|]| | | | | |]; cbn [hframe hout]; tauto. Qed.
Lemma mild_hact m i a : is_mild i a -> hact m i a.
Proof. destruct a; cbn [is_mild hact]; tauto. Qed.
Lemma hact_mild i a : hact true i a -> is_mild i a.
Proof. destruct a; cbn [hact is_mild]; auto. intros (_&_&X). discriminate X. Qed.
Lemma xp_mild m c i k a : is_mild i a -> ext m c i k (actk k a).
Proof. intros H. apply x_act; [apply ext_refl|apply mild_hact, H]. Qed.
Lemma xp_sety m c i k y : owner y = owner (ty k) -> ans y = ans (ty k) -> ext m c i k (sety k y).
Proof. intros H _. apply x_sety; [apply ext_refl|exact H]. Qed.   (* the second premise: the shape of R_sety *)
Lemma xp_frames m c i k o : Forall (hframe c) o -> ext m c i k (emit k o).
Proof. intros H. apply x_emit; [apply ext_refl|]. eapply Forall_impl; [|exact H]. intros x. apply hframe_hout. Qed.
Lemma xp_req m c i k : ext m c i k (emit k [OAccessReq c i (tok (tx k))]).
Proof. apply x_emit; [apply ext_refl|repeat constructor]. Qed.
Lemma xp_data m c i k id v : ext m c i k (emit k [OResp c id (Some v)]).
Proof. apply x_emit; [apply ext_refl|repeat constructor]. Qed.
Lemma xp_dispose c i k : ext false c i k (actk k (Conv.Dispose upd i false)).
Proof. apply x_act; [apply ext_refl|cbn [hact]; auto]. Qed.
Lemma xp_setx c i k cu n : ext false c i k (setx k (Core.with_cd (tx k) cu n)).
Proof. apply x_setx; reflexivity || apply ext_refl. Qed.

(* [ext] holds of the handlers' primitive steps (the xp_ lemmas), hence of the handler that h, a lemma of section Handlers, is about *)
Ltac by_handler h :=
  apply h;
  eauto using ext_refl, ext_trans, xp_mild, xp_sety, xp_frames, xp_req, xp_data, xp_dispose, xp_setx.
Lemma x_load m c i k b : ext m c i k (load_access c i k b).
Proof. by_handler h_load. Qed.
Lemma x_hreacc m c i k : ext m c i k (handle_reaccess c i k).
Proof. by_handler h_hreacc. Qed.
Lemma x_reacc m c i k : ext m c i k (reaccess c i k).
Proof. by_handler h_reacc. Qed.
Lemma x_unqueue m c i k : ext m c i k (unqueue_reaccess c i k).
Proof. by_handler h_unqueue. Qed.
Lemma x_respond m c i k K ids : ext m c i k K -> ext m c i k (respond c i K ids).
Proof. intros H. refine (ext_trans _ _ _ _ _ _ H _). by_handler h_respond. Qed.
Lemma x_ready m c i k id : ext m c i k (on_ready c i k id).
Proof. by_handler h_ready. Qed.
Lemma x_run_cb_granted c i k b : ext true c i k (run_cb c i true k b).
Proof. by_handler h_run_cb_granted. Qed.
Lemma x_remove c i k K n : ext false c i k K -> ext false c i k (remove_direct i K n).
Proof. intros H. refine (ext_trans _ _ _ _ _ _ H _). by_handler h_remove. Qed.
Lemma x_run_cbs c i g l k K : ext false c i k K -> ext false c i k (fold_left (run_cb c i g) l K).
Proof. intros H. refine (ext_trans _ _ _ _ _ _ H _). by_handler h_run_cbs. Qed.

Lemma hout_proc_o c i p e : Forall (hout c i) (snd (Core.proc_o val upd app c p e)).
Proof. eapply Forall_impl; [|apply hframe_proc_o]. intros x. apply hframe_hout. Qed.

Definition ynew (c : nat) : inst :=
  {| owner := c; acb := []; rcb := []; acc := None; inflight := false; ans := None; reflag := false; rq := false; lost := [] |}.
Notation res_ := (tk_ * option nat * nat * bool)%type.

Definition body_req (s : st_) (c : nat) (x : conn) (id : nat) (q : list qitem) (i : nat) : tk_ :=
  let k := K0 s (Core.with_cd (Core.with_q x q) (Some i) (S (direct x))) (insts s i) in
  match acc (insts s i) with
  | Some true => on_ready c i k id
  | Some false => remove_direct i (emit k [OErr c id Core.EDenied]) 1
  | None => load_access c i k (AReq id)
  end.
Definition body_unsub (s : st_) (c : nat) (x : conn) (id cnt : nat) (q : list qitem) (i : nat) : tk_ :=
  let k := K0 s (Core.with_q x q) (insts s i) in
  if Nat.eqb cnt 0 then emit k [OErr c id Core.EInvalid]
  else if Nat.leb cnt (direct x) then
    let k := emit k [OAck c id cnt] in
    let k := if Nat.eqb (direct x - cnt) 0
             then let y := ty k in sety k (Core.upd_y y [] (rcb y) (acc y) (inflight y) (ans y) (reflag y) (rq y) (lost y ++ Core.ids_of (acb y)))
             else k in
    remove_direct i k cnt
  else emit k [OErr c id Core.ENoSub].
Definition xtok (x : conn) (q : list qitem) (t : nat) : conn :=
  {| cqueue := q; cur := cur x; direct := direct x; tokset := true; tok := t; disc := disc x |}.
Definition body_access (s : st_) (c : nat) (x : conn) (q : list qitem) (i : nat) : tk_ :=
  let y := insts s i in
  let k := K0 s (Core.with_q x q) y in
  match ans y with
  | Some g =>
      let k := sety k (Core.upd_y y [] (rcb y) (Some g) false None (reflag y) (rq y) (lost y)) in
      fold_left (run_cb c i g) (acb y) k
  | None => k
  end.
Definition body_sub (s : st_) (c : nat) (x : conn) (q : list qitem) (i : nat) : tk_ :=
  let y := csubs (cv s) i in
  let k := K0 s (Core.with_q x q) (insts s i) in
  match Conv.cq val upd y with
  | Conv.CEvent _ e :: _ =>
      let o := if Conv.loaded val upd y && negb (Conv.flag val upd y)
               then snd (Core.proc_o val upd app c (Conv.sver val upd y, Conv.sval val upd y) e) else [] in
      emit (actk k (Conv.RunC upd i)) o
  | Conv.CLoaded _ :: _ =>
      let k := actk k (Conv.RunC upd i) in
      if Conv.gone val upd y then k
      else let z := ty k in
           respond c i (sety k (Core.upd_y z (acb z) [] (acc z) (inflight z) (ans z) (reflag z) (rq z) (lost z))) (rcb z)
  | Conv.CReacc _ :: _ => reaccess c i (actk k (Conv.RunC upd i))
  | [] => actk k (Conv.RunC upd i)
  end.
Definition body_dispose (s : st_) (c : nat) (x : conn) (q : list qitem) : tk_ :=
  let k := K0 s (Core.with_cd (Core.with_q x q) None 0) (match cur x with Some i => insts s i | None => inst0 end) in
  let k := fold_left actk (map (fun j => Conv.Dispose upd j true) (Core.insts_of val upd s c)) k in
  let y := ty k in
  let k := sety k (Core.upd_y y [] [] (acc y) (inflight y) (ans y) (reflag y) (rq y) (lost y ++ Core.ids_of (acb y) ++ rcb y)) in
  emit k [OConnUnsub c].

Inductive CT (s : st_) (c : nat) (x : conn) : res_ -> Prop :=
| CT_empty : cqueue x = [] -> CT s c x (K0 s x inst0, None, next s, mqsub s)
| CT_req_new id q : cqueue x = QReq id :: q -> cur x = None ->
    CT s c x (load_access c (next s)
                (emit (actk (K0 s (Core.with_cd (Core.with_q x q) (Some (next s)) 1) (ynew c)) (Conv.Subscribe upd (next s)))
                      (if mqsub s then [] else [OMqSub])) (AReq id), Some (next s), S (next s), true)
| CT_req_cur id q i : cqueue x = QReq id :: q -> cur x = Some i -> CT s c x (body_req s c x id q i, Some i, next s, mqsub s)
| CT_unsub_cur id cnt q i : cqueue x = QUnsub id cnt :: q -> cur x = Some i -> CT s c x (body_unsub s c x id cnt q i, Some i, next s, mqsub s)
| CT_unsub_none id cnt q : cqueue x = QUnsub id cnt :: q -> cur x = None ->
    CT s c x (emit (K0 s (Core.with_q x q) inst0) [OErr c id (if Nat.eqb cnt 0 then Core.EInvalid else Core.ENoSub)], None, next s, mqsub s)
| CT_token_cur t q i : cqueue x = QToken t :: q -> cur x = Some i ->
    CT s c x (if tokset x then reaccess c i (K0 s (xtok x q t) (insts s i)) else K0 s (xtok x q t) (insts s i), Some i, next s, mqsub s)
| CT_token_none t q : cqueue x = QToken t :: q -> cur x = None -> CT s c x (K0 s (xtok x q t) inst0, None, next s, mqsub s)
| CT_access_gone i q : cqueue x = QAccess i :: q -> sgone (csubs (cv s) i) = true ->
    CT s c x (K0 s (Core.with_q x q) (insts s i), Some i, next s, mqsub s)
| CT_access_live i q : cqueue x = QAccess i :: q -> sgone (csubs (cv s) i) = false ->
    CT s c x (body_access s c x q i, Some i, next s, mqsub s)
| CT_sub i q : cqueue x = QSub i :: q -> CT s c x (body_sub s c x q i, Some i, next s, mqsub s)
| CT_dispose q : cqueue x = QDispose :: q -> CT s c x (body_dispose s c x q, cur x, next s, mqsub s).

Lemma ct_spec s c : CT s c (conns s c) (conn_task s c).
Proof.
  unfold Core.conn_task. cbv zeta. generalize (conns s c). intros x.
  destruct x as [cq cu di tks tk dc]. destruct cq as [|[id|id cnt|t|i|i|] q].
  - apply CT_empty. reflexivity.
  - destruct cu as [i|]; match goal with |- CT _ _ ?X _ =>
      first [apply (CT_req_cur s c X id q i eq_refl eq_refl)|apply (CT_req_new s c X id q eq_refl eq_refl)] end.
  - destruct cu as [i|]; match goal with |- CT _ _ ?X _ =>
      first [apply (CT_unsub_cur s c X id cnt q i eq_refl eq_refl)|apply (CT_unsub_none s c X id cnt q eq_refl eq_refl)] end.
  - destruct cu as [i|]; match goal with |- CT _ _ ?X _ =>
      first [apply (CT_token_cur s c X t q i eq_refl eq_refl)|apply (CT_token_none s c X t q eq_refl eq_refl)] end.
  - cbn [cqueue Core.with_q Core.ts Core.cv]. unfold Core.is_gone. destruct (sgone (csubs (cv s) i)) eqn:Eg;
      match goal with |- CT _ _ ?X _ =>
        first [apply (CT_access_gone s c X i q eq_refl Eg)|apply (CT_access_live s c X i q eq_refl Eg)] end.
  - match goal with |- CT _ _ ?X _ => apply (CT_sub s c X i q eq_refl) end.
  - match goal with |- CT _ _ ?X _ => apply (CT_dispose s c X q eq_refl) end.
Qed.

Lemma ext_body_req s c x id q i :
  ext false c i (K0 s (Core.with_cd (Core.with_q x q) (Some i) (S (direct x))) (insts s i)) (body_req s c x id q i).
Proof.
  unfold body_req. cbv zeta. destruct (acc (insts s i)) as [[|]|].
  - apply x_ready.
  - apply x_remove. xt.
  - apply x_load.
Qed.
Lemma ext_body_unsub s c x id cnt q i : ext false c i (K0 s (Core.with_q x q) (insts s i)) (body_unsub s c x id cnt q i).
Proof.
  unfold body_unsub. cbv zeta. destruct (Nat.eqb cnt 0); [xt|]. destruct (Nat.leb cnt (direct x)); [|xt].
  apply x_remove. destruct (Nat.eqb (direct x - cnt) 0); xt.
Qed.
Lemma ext_body_access s c x q i : ext false c i (K0 s (Core.with_q x q) (insts s i)) (body_access s c x q i).
Proof.
  unfold body_access. cbv zeta. destruct (ans (insts s i)) as [g|]; [|apply ext_refl].
  apply x_run_cbs. xt.
Qed.
Lemma ext_body_sub s c x q i : ext false c i (actk (K0 s (Core.with_q x q) (insts s i)) (Conv.RunC upd i)) (body_sub s c x q i).
Proof.
  unfold body_sub. cbv zeta. destruct (scq (csubs (cv s) i)) as [|[|e|] q'].
  - apply ext_refl.
  - destruct (sgone (csubs (cv s) i)); [apply ext_refl|]. apply x_respond. xt.
  - apply x_emit; [apply ext_refl|]. destruct (_ && _); [apply hout_proc_o|constructor].
  - apply x_reacc.
Qed.

Definition sync (σ : cst) (k : tk_) : Prop := ts k = fold_left cstep (ta k) σ.
Lemma sync_ext σ m c i k1 k : sync σ k1 -> ext m c i k1 k -> sync σ k.
Proof.
  unfold sync. intros H [(la&A1&A2&_) _ _ _ _ _ _ _]. rewrite A1, A2, fold_left_app, H. reflexivity.
Qed.
Lemma sync_act σ k a : sync σ k -> sync σ (actk k a).
Proof. unfold sync. intros H. cbn [Core.act Core.ts Core.ta]. rewrite fold_left_app, <- H. reflexivity. Qed.
Lemma sync_acts σ l : forall k, sync σ k -> sync σ (fold_left actk l k).
Proof. exact (fold_keeps (sync σ) actk (sync_act σ) l). Qed.
Lemma acts_ta l : forall k, ta (fold_left actk l k) = ta k ++ l.
Proof.
  induction l as [|a l IH]; intros k; cbn [fold_left]; [rewrite app_nil_r; reflexivity|].
  rewrite IH. cbn [Core.act Core.ta]. rewrite <- app_assoc. reflexivity.
Qed.
Lemma acts_frame l : forall k, tx (fold_left actk l k) = tx k /\ ty (fold_left actk l k) = ty k /\ to (fold_left actk l k) = to k.
Proof. induction l as [|a l IH]; intros k; cbn [fold_left]; [auto|]. destruct (IH (actk k a)) as (A&B&C). rewrite A, B, C. auto. Qed.

Definition tact (oi : option nat) (a : act_) : Prop :=
  match a with
  | Conv.RunC _ j | Conv.StartQueue _ j | Conv.Respond _ j _ | Conv.Unqueue _ j _ => oi = Some j
  | Conv.Dispose _ j cl => oi = Some j /\ cl = false
  | _ => False
  end.
Definition tout (c : nat) (oi : option nat) (o : out_) : Prop :=
  match o with
  | Core.OResp _ _ c' _ _ | Core.OErr _ _ c' _ _ | Core.OAck _ _ c' _ _ | Core.OEvent _ _ c' _ | Core.OCustom _ _ c'
  | Core.OUnsubEv _ _ c' => c' = c
  | Core.OAccessReq _ _ c' i' _ => c' = c /\ oi = Some i'
  | _ => False
  end.
Lemma hact_tact m i a : hact m i a -> tact (Some i) a.
Proof. destruct a; cbn [hact tact]; try contradiction; intros; try congruence. destruct H as (-> & -> & _). auto. Qed.
Lemma hout_tout c i o : hout c i o -> tout c (Some i) o.
Proof. destruct o; cbn [hout tout]; try contradiction; intros; try congruence. destruct H as [-> ->]. auto. Qed.

(* A task works for the instance [oi] its connection holds, or for none ([task_plain]); or it opens a new instance ([task_new]);
   or it gives up all the instances of the connection ([task_disp]). *)
Set Implicit Arguments.
Record task_plain (s : st_) (c : nat) (k : tk_) (oi : option nat) (nx : nat) (ms : bool) : Prop := {
  tp_next : nx = next s; tp_mqsub : ms = mqsub s; tp_acts : Forall (tact oi) (ta k); tp_outs : Forall (tout c oi) (to k) }.
Record task_new (s : st_) (c : nat) (k : tk_) (oi : option nat) (nx : nat) (ms : bool) : Prop := {
  tn_inst : oi = Some (next s); tn_next : nx = S (next s); tn_mqsub : ms = true;
  tn_acts : ta k = [Conv.Subscribe upd (next s)];
  tn_outs : to k = (if mqsub s then [] else [OMqSub]) ++ [OAccessReq c (next s) (tok (conns s c))] }.
Record task_disp (s : st_) (c : nat) (k : tk_) (oi : option nat) (nx : nat) (ms : bool) : Prop := {
  td_head : exists q, cqueue (conns s c) = QDispose :: q; td_next : nx = next s; td_mqsub : ms = mqsub s;
  td_acts : ta k = map (fun j => Conv.Dispose upd j true) (Core.insts_of val upd s c); td_outs : to k = [OConnUnsub c];
  td_cur : cur (tx k) = None }.
Record task_of (s : st_) (c : nat) (k : tk_) (oi : option nat) (nx : nat) (ms : bool) : Prop := {
  t_sync : sync (cv s) k; t_queue : cqueue (tx k) = tl (cqueue (conns s c)); t_disc : disc (tx k) = disc (conns s c);
  t_kind : task_plain s c k oi nx ms \/ task_new s c k oi nx ms \/ task_disp s c k oi nx ms }.
Unset Implicit Arguments.

Lemma plain_ext s m c i k1 k : ext m c i k1 k -> sync (cv s) k1 ->
  cqueue (tx k1) = tl (cqueue (conns s c)) -> disc (tx k1) = disc (conns s c) -> Forall (tact (Some i)) (ta k1) -> Forall (tout c (Some i)) (to k1) ->
  task_of s c k (Some i) (next s) (mqsub s).
Proof.
  intros He Hs Hq Hd Ha Ho. destruct (e_acts _ _ _ _ _ He) as (la&A1&_&A3). destruct (e_outs _ _ _ _ _ He) as (lo&B1&B2).
  constructor; [eapply sync_ext; eassumption|rewrite (e_q _ _ _ _ _ He); exact Hq|rewrite (e_disc _ _ _ _ _ He); exact Hd|left; constructor; try reflexivity].
  - rewrite A1. apply Forall_app. split; [exact Ha|]. eapply Forall_impl; [|exact A3]. apply hact_tact.
  - rewrite B1. apply Forall_app. split; [exact Ho|]. eapply Forall_impl; [|exact B2]. apply hout_tout.
Qed.

Lemma task_shape s c : let '(k, oi, nx, ms) := conn_task s c in task_of s c k oi nx ms.
Proof.
  destruct (ct_spec s c) as [Eq|id q Eq Ec|id q i Eq Ec|id cnt q i Eq Ec|id cnt q Eq Ec|t q i Eq Ec|t q Eq Ec|i q Eq Eg|i q Eq Eg|i q Eq|q Eq].
  - constructor; [reflexivity|cbn [Core.tx]; rewrite Eq; reflexivity|reflexivity|left; repeat constructor].
  - unfold Core.load_access. constructor; [reflexivity|rewrite Eq; reflexivity|reflexivity|right; left; repeat split].
  - apply (plain_ext s _ c i _ _ (ext_body_req s c (conns s c) id q i)); [reflexivity|rewrite Eq; reflexivity|reflexivity|constructor|constructor].
  - apply (plain_ext s _ c i _ _ (ext_body_unsub s c (conns s c) id cnt q i)); [reflexivity|rewrite Eq; reflexivity|reflexivity|constructor|constructor].
  - constructor; [reflexivity|rewrite Eq; reflexivity|reflexivity|left; repeat constructor].
  - apply (plain_ext s false c i (K0 s (xtok (conns s c) q t) (insts s i))); [|reflexivity|rewrite Eq; reflexivity|reflexivity|constructor|constructor].
    destruct (tokset (conns s c)); [apply x_reacc|apply ext_refl].
  - constructor; [reflexivity|rewrite Eq; reflexivity|reflexivity|left; repeat constructor].
  - constructor; [reflexivity|rewrite Eq; reflexivity|reflexivity|left; repeat constructor].
  - apply (plain_ext s _ c i _ _ (ext_body_access s c (conns s c) q i)); [reflexivity|rewrite Eq; reflexivity|reflexivity|constructor|constructor].
  - apply (plain_ext s _ c i _ _ (ext_body_sub s c (conns s c) q i)); [apply sync_act; reflexivity|rewrite Eq; reflexivity|reflexivity|repeat constructor|constructor].
  - unfold body_dispose. cbv zeta.
    match goal with |- context [fold_left actk ?l ?k0] => pose proof (acts_ta l k0) as S2; destruct (acts_frame l k0) as (S3&S4&S5) end.
    constructor; [apply sync_acts; reflexivity| | |right; right; constructor]; cbn [Core.emit Core.sety Core.ts Core.ta Core.tx Core.to];
      rewrite ?S2, ?S3, ?S5, ?Eq; try reflexivity. exists q. reflexivity.
Qed.

Lemma step_conn_empty s c : cqueue (conns s c) = [] -> step s (Core.GrantConn upd c) = (s, []).
Proof. intros E. unfold Core.step. rewrite E. reflexivity. Qed.
Lemma step_conn s c : cqueue (conns s c) <> [] ->
  step s (Core.GrantConn upd c) =
  let '(k, oi, nx, ms) := conn_task s c in
  ({| Core.cv := ts k; Core.conns := Core.set_conn (conns s) c (tx k);
      Core.insts := match oi with Some i => Core.set_inst (insts s) i (ty k) | None => insts s end;
      Core.next := nx; Core.mqsub := ms; Core.getreq := getreq s |}, to k).
Proof.
  intros Hne. unfold Core.step. destruct (cqueue (conns s c)) as [|it q] eqn:Eq; [contradiction|].
  cbn [Core.acts_of]. pose proof (task_shape s c) as T. destruct (conn_task s c) as [[[k oi] nx] ms].
  rewrite <- (t_sync T). reflexivity.
Qed.

Lemma grant_ind (P : st_ * list out_ -> Prop) s c :
  (cqueue (conns s c) = [] -> P (s, [])) ->
  (forall it q k oi nx ms, cqueue (conns s c) = it :: q -> conn_task s c = (k, oi, nx, ms) -> task_of s c k oi nx ms ->
     P ({| Core.cv := ts k; Core.conns := Core.set_conn (conns s) c (tx k);
           Core.insts := match oi with Some i => Core.set_inst (insts s) i (ty k) | None => insts s end;
           Core.next := nx; Core.mqsub := ms; Core.getreq := getreq s |}, to k)) ->
  P (step s (Core.GrantConn upd c)).
Proof.
  intros H0 H1. destruct (cqueue (conns s c)) as [|it q] eqn:Eq; [rewrite step_conn_empty by exact Eq; exact (H0 eq_refl)|].
  rewrite step_conn by (rewrite Eq; discriminate). pose proof (task_shape s c) as T.
  destruct (conn_task s c) as [[[k oi] nx] ms]. exact (H1 it q k oi nx ms eq_refl eq_refl T).
Qed.

Notation eitem_ := (Conv.eitem val upd).
Definition intro_by (a : act_) (it : eitem_) : Prop :=
  match a with
  | Conv.SvcUpdate _ u => it = Conv.IEvent val upd u
  | Conv.SvcCustom _ => it = Conv.ICustom val upd
  | Conv.SvcAnswer _ => exists v, it = Conv.IGetResp val upd v
  | Conv.SvcNop _ n => it = Conv.INop val upd n
  | Conv.SvcReacc _ => it = Conv.IReacc val upd
  | Conv.Subscribe _ k => it = Conv.IAddSub val upd k
  | Conv.Dispose _ k _ | Conv.RunC _ k => it = Conv.IRemSub val upd k
  | Conv.RunE _ => exists k, it = Conv.IRemSub val upd k
  | _ => False
  end.
Lemma in_snoc {A} (x y : A) l : In x (l ++ [y]) -> In x l \/ x = y.
Proof. intros H. apply in_app_or in H. destruct H as [H|[H|[]]]; auto. Qed.
Lemma qe_step σ a it : In it (cqe (cstep σ a)) -> In it (cqe σ) \/ intro_by a it.
Proof.
  destruct a as [u| | |n| |k|k cl| |k|k n|k n|k]; cbn [Conv.step intro_by];
    try (cbn [Conv.qe]; intros H; apply in_snoc in H; tauto); try solve [destruct (_ && _); auto].
  - destruct (Conv.answered val upd σ); [auto|]. cbn [Conv.qe]. intros H. apply in_snoc in H. destruct H as [H|H]; [auto|right; eexists; exact H].
  - destruct (ssubscribed (csubs σ k)); [auto|]. cbn [Conv.qe]. intros H. apply in_snoc in H. tauto.
  - destruct (sgone (csubs σ k)); [destruct cl; cbn [Conv.qe]; auto|]. cbn [Conv.qe]. destruct (sloaded (csubs σ k)); [|auto].
    intros H. apply in_snoc in H. tauto.
  - destruct (cqe σ) as [|[u| |v|k|k| |n] q] eqn:Eq; cbn [Conv.qe]; try (intros H; left; right; exact H).
    + intros H. rewrite Eq in H. destruct H.
    + destruct (Conv.rs_loaded val upd σ); [destruct (norm u (Conv.rs_val val upd σ))|]; cbn [Conv.qe]; intros H; left; right; exact H.
    + intros H. apply in_app_or in H. destruct H as [H|H]; [left; right; exact H|]. right.
      unfold Conv.refused in H. apply in_map_iff in H. destruct H as (x & E & _). exists x. symmetry. exact E.
    + destruct (Conv.rs_loaded val upd σ && sclosed (csubs σ k)); intros H; [|left; right; exact H].
      apply in_snoc in H. destruct H as [H|H]; [left; right; exact H|right; eexists; exact H].
  - destruct (scq (csubs σ k)) as [|[|e|] q]; [auto|destruct (sgone (csubs σ k))| |]; cbn [Conv.qe]; auto.
    intros H. apply in_snoc in H. tauto.
Qed.
Lemma qe_steps acts : forall σ it, In it (cqe (fold_left cstep acts σ)) -> In it (cqe σ) \/ exists a, In a acts /\ intro_by a it.
Proof.
  induction acts as [|a acts IH]; intros σ it H; [left; exact H|]. cbn [fold_left] in H.
  apply IH in H. destruct H as [H|(a'&H1&H2)]; [|right; exists a'; split; [right; exact H1|exact H2]].
  apply qe_step in H. destruct H as [H|H]; [left; exact H|right; exists a; split; [left; reflexivity|exact H]].
Qed.
Lemma intro_inv a it : intro_by a it ->
  match it with Conv.IAddSub _ _ j => a = Conv.Subscribe upd j | Conv.INop _ _ n => a = Conv.SvcNop upd n | _ => True end.
Proof. destruct a; cbn [intro_by]; try contradiction; intros H; first [subst it|destruct H as [z ->]]; first [exact I|reflexivity]. Qed.
Lemma add_steps acts σ j : In (Conv.IAddSub val upd j) (cqe (fold_left cstep acts σ)) ->
  In (Conv.IAddSub val upd j) (cqe σ) \/ In (Conv.Subscribe upd j) acts.
Proof.
  intros H. apply qe_steps in H. destruct H as [H|(a&H1&H2)]; [left; exact H|right]. apply intro_inv in H2. subst a. exact H1.
Qed.
Lemma nop_steps acts σ i : In (Conv.INop val upd i) (cqe (fold_left cstep acts σ)) ->
  In (Conv.INop val upd i) (cqe σ) \/ In (Conv.SvcNop upd i) acts.
Proof.
  intros H. apply qe_steps in H. destruct H as [H|(a&H1&H2)]; [left; exact H|right]. apply intro_inv in H2. subst a. exact H1.
Qed.

Definition tgt (a : act_) : option nat :=
  match a with
  | Conv.Subscribe _ k | Conv.Dispose _ k _ | Conv.RunC _ k | Conv.Respond _ k _ | Conv.Unqueue _ k _ | Conv.StartQueue _ k => Some k
  | _ => None
  end.

Lemma subs_other σ a j : tgt a <> Some j -> a <> Conv.RunE upd -> csubs (cstep σ a) j = csubs σ j.
Proof.
  intros Ht Hr. destruct a as [u| | |n| |k|k cl| |k|k n|k n|k]; cbn [tgt] in Ht; cbn [Conv.step]; try reflexivity; try contradiction;
    try (destruct (_ && _); [|reflexivity]; cbn [Conv.subs]; apply Conv.set_sub_neq; congruence).
  - destruct (Conv.answered val upd σ); reflexivity.
  - destruct (ssubscribed (csubs σ k)); [reflexivity|]. cbn [Conv.subs]. apply Conv.set_sub_neq. congruence.
  - destruct (sgone (csubs σ k)); [destruct cl|]; cbn [Conv.subs]; try reflexivity; apply Conv.set_sub_neq; congruence.
  - destruct (scq (csubs σ k)) as [|[|e|] q]; [reflexivity|destruct (sgone (csubs σ k))| |]; cbn [Conv.subs]; apply Conv.set_sub_neq; congruence.
Qed.
Lemma subs_others σ acts j : Forall (fun a => tgt a <> Some j /\ a <> Conv.RunE upd) acts ->
  csubs (fold_left cstep acts σ) j = csubs σ j.
Proof.
  revert σ. induction acts as [|a acts IH]; intros σ H; [reflexivity|]. cbn [fold_left].
  inversion H as [|? ? [H1 H2] H3]; subst. rewrite IH by assumption. apply subs_other; assumption.
Qed.

(* the cache worker changes a subscriber's record only by appending one item to its queue, and only for a member of the
   resource or for the subscriber that is just being added *)
Lemma rune_sub σ j :
  csubs (cstep σ (Conv.RunE upd)) j = csubs σ j \/
  exists it, csubs (cstep σ (Conv.RunE upd)) j = Conv.push_c val upd (csubs σ j) it /\
    (Conv.mem j (Conv.rs_subs val upd σ) = true \/ exists q, cqe σ = Conv.IAddSub val upd j :: q).
Proof.
  assert (PA : forall it, Conv.push_all val upd (csubs σ) (Conv.rs_subs val upd σ) it j = csubs σ j \/
            exists it', Conv.push_all val upd (csubs σ) (Conv.rs_subs val upd σ) it j = Conv.push_c val upd (csubs σ j) it' /\
              (Conv.mem j (Conv.rs_subs val upd σ) = true \/ exists q, cqe σ = Conv.IAddSub val upd j :: q)).
  { intros it. unfold Conv.push_all. destruct (Conv.mem j (Conv.rs_subs val upd σ)); cbn [andb]; [|left; reflexivity].
    destruct (negb _); [right; eexists; split; [reflexivity|left; reflexivity]|left; reflexivity]. }
  cbn [Conv.step]. destruct (cqe σ) as [|[u| |v|k|k| |n] q] eqn:Eq; cbn [Conv.subs]; try (left; reflexivity); try apply PA.
  - destruct (Conv.rs_loaded val upd σ); [|left; reflexivity]. destruct (norm u (Conv.rs_val val upd σ)); cbn [Conv.subs]; [apply PA|left; reflexivity].
  - destruct (Conv.rs_loaded val upd σ); [apply PA|left; reflexivity].
  - destruct (Conv.rs_loaded val upd σ && negb (sclosed (csubs σ k))); [|left; reflexivity].
    unfold Conv.set_sub. destruct (Nat.eqb_spec j k) as [->|_]; [|left; reflexivity].
    right. eexists. split; [reflexivity|right; eexists; reflexivity].
Qed.

Lemma loaded_head σ i q : CInv σ -> scq (csubs σ i) = Conv.CLoaded upd :: q -> sloaded (csubs σ i) = false.
Proof.
  intros H E. pose proof (Conv.i4 _ _ _ _ H i) as H4. rewrite E, Conv.cnt_cons in H4. cbn [Conv.is_ld Conv.b2n] in H4.
  pose proof (Conv.b2n_le (Conv.mem i (Conv.rs_subs val upd σ) && Conv.rs_loaded val upd σ)).
  destruct (sloaded (csubs σ i)); [cbn [Conv.b2n] in H4; lia|reflexivity].
Qed.

Lemma rune_fresh σ j : CInv σ -> ssubscribed (csubs σ j) = false -> csubs (cstep σ (Conv.RunE upd)) j = csubs σ j.
Proof.
  intros H Hs. destruct (rune_sub σ j) as [E|(it & _ & [Hm|(q & Eq)])]; [exact E| |]; exfalso.
  - pose proof (Conv.i3g _ _ _ _ H j) as H3. rewrite Hs, Hm in H3. cbn in H3. lia.
  - pose proof (Conv.i3g _ _ _ _ H j) as H3. rewrite Eq, Hs, Conv.cnt_cons in H3. cbn [Conv.is_add] in H3.
    rewrite Nat.eqb_refl in H3. cbn in H3. lia.
Qed.

Lemma rune_idle σ : Conv.rs_subs val upd σ = [] -> Core.is_add_head val upd σ = false ->
  (forall j, csubs (cstep σ (Conv.RunE upd)) j = csubs σ j) /\ Conv.rs_subs val upd (cstep σ (Conv.RunE upd)) = [].
Proof.
  intros Hr Hh. split.
  - intros j. destruct (rune_sub σ j) as [E|(it & _ & [Hm|(q & Eq)])]; [exact E| |]; exfalso.
    + rewrite Hr in Hm. discriminate.
    + unfold Core.is_add_head in Hh. rewrite Eq in Hh. discriminate.
  - unfold Core.is_add_head in Hh. cbn [Conv.step]. destruct (cqe σ) as [|[u| |v|k|k| |n] q]; cbn [Conv.rs_subs]; auto; try discriminate Hh.
    + destruct (Conv.rs_loaded val upd σ); [|auto]. destruct (norm u (Conv.rs_val val upd σ)); auto.
    + rewrite Hr. reflexivity.
Qed.
Lemma no_add_head (σ : cst) : (forall j, ~ In (Conv.IAddSub val upd j) (cqe σ)) -> Core.is_add_head val upd σ = false.
Proof. intros H. unfold Core.is_add_head. destruct (cqe σ) as [|[u| |v|k|k| |n] q]; try reflexivity. destruct (H k). left. reflexivity. Qed.

Set Implicit Arguments.
Record mild_kept (σ' σ : cst) (i : nat) : Prop := {
  mk_subscribed : ssubscribed (csubs σ' i) = ssubscribed (csubs σ i);
  mk_cq : scq (csubs σ' i) = scq (csubs σ i); mk_gone : sgone (csubs σ' i) = sgone (csubs σ i);
  mk_closed : sclosed (csubs σ' i) = sclosed (csubs σ i) }.
Unset Implicit Arguments.
Lemma mild_step σ i a : is_mild i a -> mild_kept (cstep σ a) σ i.
Proof.
  destruct a as [u| | |n| |k|k cl| |k|k n|k n|k]; cbn [is_mild]; try contradiction; intros ->; cbn [Conv.step];
    (destruct (_ && _); [|constructor; reflexivity]).
  1, 2: match goal with |- context [Conv.drain val upd app ?x ?m] => destruct (Conv.drain_fields val upd app x m) as (A&_&C&_&_&_&G&Gc) end.
  all: constructor; cbn [Conv.subs]; rewrite ?Conv.set_sub_eq; auto.
Qed.
Lemma mild_steps la : forall σ i, Forall (is_mild i) la -> mild_kept (fold_left cstep la σ) σ i.
Proof.
  induction la as [|a la IH]; intros σ i H; cbn [fold_left]; [constructor; reflexivity|]. inversion H as [|? ? H1 H2]; subst.
  destruct (IH (cstep σ a) i H2) as [A B C D]. destruct (mild_step σ i a H1) as [A' B' C' D']. constructor; congruence.
Qed.
Lemma runc_kept σ k : let x := csubs σ k in let x' := csubs (cstep σ (Conv.RunC upd k)) k in
  ssubscribed x' = ssubscribed x /\ sgone x' = sgone x /\ scq x' = tl (scq x).
Proof.
  cbn zeta. cbn [Conv.step]. destruct (scq (csubs σ k)) as [|[|e|] q] eqn:E; [rewrite ?E; auto|destruct (sgone (csubs σ k)) eqn:G| |];
    cbn [Conv.subs]; rewrite Conv.set_sub_eq; cbn [Conv.subscribed Conv.gone Conv.cq tl]; auto.
  destruct (negb (sloaded (csubs σ k))); [auto|]. destruct (sflag (csubs σ k)); [auto|].
  destruct (Conv.proc val upd app (ssver (csubs σ k), ssval (csubs σ k)) e). auto.
Qed.

Lemma gone_step σ a j :
  sgone (csubs (cstep σ a) j) = match a with Conv.Dispose _ k _ => Nat.eqb j k || sgone (csubs σ j) | _ => sgone (csubs σ j) end.
Proof.
  destruct a as [u| | |n| |k|k cl| |k|k n|k n|k];
    try (rewrite subs_other by (cbn [tgt]; congruence); reflexivity);
    try (destruct (Nat.eqb_spec j k) as [->|Hne]; [|rewrite subs_other by (cbn [tgt]; congruence); reflexivity]);
    try (apply mk_gone, mild_step; reflexivity).
  - cbn [Conv.step]. destruct (ssubscribed (csubs σ k)); [reflexivity|]. cbn [Conv.subs]. rewrite Conv.set_sub_eq. reflexivity.
  - cbn [Conv.step orb]. destruct (sgone (csubs σ k)) eqn:Eg; [destruct cl|]; cbn [Conv.subs]; rewrite ?Conv.set_sub_eq; cbn [Conv.dispose Conv.gone]; auto.
  - destruct (rune_sub σ j) as [->|(it & -> & _)]; reflexivity.
  - apply runc_kept.
Qed.

Lemma gone_steps acts : forall σ j, Forall (fun a => forall k cl, a = Conv.Dispose upd k cl -> k <> j) acts ->
  sgone (csubs (fold_left cstep acts σ) j) = sgone (csubs σ j).
Proof.
  induction acts as [|a acts IH]; intros σ j Ha; [reflexivity|]. cbn [fold_left]. inversion Ha as [|? ? H1 H2]; subst.
  rewrite IH by assumption. rewrite gone_step. destruct a; try reflexivity.
  assert (Hne : s <> j) by (eapply H1; reflexivity). destruct (Nat.eqb_spec j s); [congruence|reflexivity].
Qed.
Lemma gone_kept acts : forall σ j, sgone (csubs σ j) = true -> sgone (csubs (fold_left cstep acts σ) j) = true.
Proof.
  intros σ j. revert σ. apply (fold_keeps (fun σ => sgone (csubs σ j) = true)). intros σ a H. rewrite gone_step.
  destruct a; rewrite H; try reflexivity. apply orb_true_r.
Qed.

Lemma subscribed_step σ a j : ssubscribed (csubs σ j) = true -> ssubscribed (csubs (cstep σ a) j) = true.
Proof.
  intros H. destruct a as [u| | |n| |k|k cl| |k|k n|k n|k];
    try (rewrite subs_other by (cbn [tgt]; congruence); exact H);
    try (destruct (Nat.eqb_spec j k) as [->|Hne]; [|rewrite subs_other by (cbn [tgt]; congruence); exact H]);
    try (erewrite mk_subscribed; [exact H|apply mild_step; reflexivity]).
  - cbn [Conv.step]. destruct (ssubscribed (csubs σ k)) eqn:E; [exact E|]. cbn [Conv.subs]. rewrite Conv.set_sub_eq. reflexivity.
  - cbn [Conv.step]. destruct (sgone (csubs σ k)); [destruct cl|]; cbn [Conv.subs]; rewrite ?Conv.set_sub_eq; exact H.
  - destruct (rune_sub σ j) as [->|(it & -> & _)]; exact H.
  - rewrite (proj1 (runc_kept σ k)). exact H.
Qed.
Lemma subscribed_steps acts : forall σ j, ssubscribed (csubs σ j) = true -> ssubscribed (csubs (fold_left cstep acts σ) j) = true.
Proof. intros σ j. revert σ. apply (fold_keeps (fun σ => ssubscribed (csubs σ j) = true)). intros σ a. apply subscribed_step. Qed.
Lemma rs_subs_step σ a : a <> Conv.RunE upd -> Conv.rs_subs val upd (cstep σ a) = Conv.rs_subs val upd σ.
Proof.
  intros H. destruct a as [u| | |n| |k|k cl| |k|k n|k n|k]; cbn [Conv.step]; try reflexivity; try contradiction;
    try (destruct (_ && _); reflexivity).
  - destruct (Conv.answered val upd σ); reflexivity.
  - destruct (ssubscribed (csubs σ k)); reflexivity.
  - destruct (sgone (csubs σ k)); [destruct cl|]; reflexivity.
  - destruct (scq (csubs σ k)) as [|[|e|] q]; [|destruct (sgone (csubs σ k))| |]; reflexivity.
Qed.
Lemma rs_subs_steps acts : Forall (fun a => a <> Conv.RunE upd) acts ->
  forall σ, Conv.rs_subs val upd (fold_left cstep acts σ) = Conv.rs_subs val upd σ.
Proof. induction 1 as [|a acts Ha _ IH]; intros σ; cbn [fold_left]; [reflexivity|]. rewrite IH. apply rs_subs_step, Ha. Qed.

Lemma ext_mild c i k k' : ext true c i k k' -> tx k' = tx k /\ gone_ i k' = gone_ i k.
Proof.
  intros [(la&A1&A2&A3) _ T _ _ _ _ _]. split; [apply T; reflexivity|].
  assert (Hm : Forall (is_mild i) la) by (eapply Forall_impl; [|exact A3]; apply hact_mild).
  unfold Core.gone_, Core.me. rewrite A2. apply (mild_steps la (ts k) i Hm).
Qed.

Lemma respond_all_sub σ i : sloaded (csubs σ i) = true -> ssent (csubs σ i) = false ->
  let x := csubs σ i in let x' := csubs (cstep σ (Conv.Respond upd i (length (seq_ x)))) i in
  ssent x' = true /\ sloaded x' = true /\ sflag x' = false /\
  ssval x' = snd (Conv.replay val upd app (ssver x, ssval x) (seq_ x)).
Proof.
  intros Hl Hs. cbn zeta. cbn [Conv.step]. rewrite Hl, Hs. cbn [andb negb Conv.subs]. rewrite Conv.set_sub_eq.
  unfold Conv.drain. cbn [Conv.with_sub Conv.eq Conv.sver Conv.sval Conv.sent].
  rewrite firstn_all, skipn_all.
  destruct (Conv.replay val upd app (ssver (csubs σ i), ssval (csubs σ i)) (seq_ (csubs σ i))) as [ver v].
  cbn [Conv.with_sub Conv.sent Conv.loaded Conv.flag Conv.gone Conv.sval snd]. auto.
Qed.
Lemma respond_none_sub σ i : sloaded (csubs σ i) = true -> ssent (csubs σ i) = false ->
  let x := csubs σ i in let x' := csubs (cstep σ (Conv.Respond upd i 0)) i in
  ssent x' = true /\ sloaded x' = true /\ ssval x' = ssval x.
Proof.
  intros Hl Hs. cbn zeta. cbn [Conv.step]. rewrite Hl, Hs. cbn [andb negb Conv.subs]. rewrite Conv.set_sub_eq.
  unfold Conv.drain. cbn [Conv.with_sub Conv.eq Conv.sver Conv.sval Conv.sent firstn skipn Conv.replay fold_left].
  cbn [Conv.with_sub Conv.sent Conv.loaded Conv.flag Conv.gone Conv.sval snd]. auto.
Qed.
Lemma respond_noop σ i n : sloaded (csubs σ i) && negb (ssent (csubs σ i)) = false -> cstep σ (Conv.Respond upd i n) = σ.
Proof. intros H. cbn [Conv.step]. rewrite H. reflexivity. Qed.
Lemma unqueue_all_sub σ i : sloaded (csubs σ i) = true -> ssent (csubs σ i) = true -> sflag (csubs σ i) = true ->
  let x := csubs σ i in let x' := csubs (cstep σ (Conv.Unqueue upd i (length (seq_ x)))) i in
  ssent x' = true /\ sloaded x' = true /\ sflag x' = false /\
  ssval x' = snd (Conv.replay val upd app (ssver x, ssval x) (seq_ x)).
Proof.
  intros Hl Hs Hf. cbn zeta. cbn [Conv.step]. rewrite Hl, Hs, Hf. cbn [andb negb Conv.subs]. rewrite Conv.set_sub_eq.
  unfold Conv.drain. rewrite firstn_all, skipn_all.
  destruct (Conv.replay val upd app (ssver (csubs σ i), ssval (csubs σ i)) (seq_ (csubs σ i))) as [ver v].
  cbn [Conv.with_sub Conv.sent Conv.loaded Conv.flag Conv.gone Conv.sval snd]. auto.
Qed.
Lemma unqueue_noop σ i n : sloaded (csubs σ i) && ssent (csubs σ i) && sflag (csubs σ i) = false -> cstep σ (Conv.Unqueue upd i n) = σ.
Proof. intros H. cbn [Conv.step]. rewrite H. reflexivity. Qed.
Lemma startq_sub σ i :
  let x := csubs σ i in let x' := csubs (cstep σ (Conv.StartQueue upd i)) i in
  ssent x' = ssent x /\ sloaded x' = sloaded x /\ ssval x' = ssval x /\ seq_ x' = seq_ x /\
  sflag x' = (sloaded x && ssent x || sflag x).
Proof.
  cbn zeta. cbn [Conv.step]. destruct (sloaded (csubs σ i) && ssent (csubs σ i)) eqn:E; [|repeat split].
  cbn [Conv.subs]. rewrite Conv.set_sub_eq. cbn. repeat split.
Qed.
Lemma runc_nil σ i : scq (csubs σ i) = [] -> cstep σ (Conv.RunC upd i) = σ.
Proof. intros H. cbn [Conv.step]. rewrite H. reflexivity. Qed.
Lemma runc_loaded_fields σ i q : scq (csubs σ i) = Conv.CLoaded upd :: q -> sgone (csubs σ i) = false ->
  let x1 := csubs (cstep σ (Conv.RunC upd i)) i in
  sloaded x1 = true /\ ssent x1 = false /\ seq_ x1 = [] /\ sflag x1 = true.
Proof. intros E G. cbn zeta. cbn [Conv.step]. rewrite E, G. cbn [Conv.subs]. rewrite Conv.set_sub_eq. cbn. auto. Qed.
Lemma runc_event_fields σ i e q : scq (csubs σ i) = Conv.CEvent upd e :: q ->
  let x := csubs σ i in let x1 := csubs (cstep σ (Conv.RunC upd i)) i in
  sloaded x1 = sloaded x /\ ssent x1 = ssent x /\
  (sloaded x && negb (sflag x) = true -> sflag x1 = false /\ ssval x1 = snd (Conv.proc val upd app (ssver x, ssval x) e)) /\
  (sloaded x && negb (sflag x) = false -> sflag x1 = sflag x /\ ssval x1 = ssval x).
Proof.
  intros E. cbn zeta. cbn [Conv.step]. rewrite E. cbn [Conv.subs]. rewrite Conv.set_sub_eq.
  destruct (sloaded (csubs σ i)) eqn:El; cbn [negb andb].
  - destruct (sflag (csubs σ i)) eqn:Ef; cbn [negb].
    + cbn. repeat split; auto; discriminate.
    + destruct (Conv.proc val upd app (ssver (csubs σ i), ssval (csubs σ i)) e) as [ver v]. cbn. repeat split; auto; discriminate.
  - cbn. repeat split; auto; discriminate.
Qed.
Lemma runc_reacc_fields σ i q : scq (csubs σ i) = Conv.CReacc upd :: q ->
  let x := csubs σ i in let x1 := csubs (cstep σ (Conv.RunC upd i)) i in
  sloaded x1 = sloaded x /\ ssent x1 = ssent x /\ sflag x1 = sflag x /\ ssval x1 = ssval x /\ seq_ x1 = seq_ x.
Proof. intros E. cbn zeta. cbn [Conv.step]. rewrite E. cbn [Conv.subs]. rewrite Conv.set_sub_eq. cbn. auto. Qed.

Definition nocq (a : act_) : Prop := a <> Conv.RunE upd /\ forall j, a <> Conv.RunC upd j.
Lemma cq_other σ a j : nocq a -> scq (csubs (cstep σ a) j) = scq (csubs σ j).
Proof.
  intros [Hr Hc]. destruct a as [u| | |n| |k|k cl| |k|k n|k n|k];
    try (rewrite subs_other by (cbn [tgt]; congruence); reflexivity);
    try (destruct (Nat.eqb_spec j k) as [->|Hne]; [|rewrite subs_other by (cbn [tgt]; congruence); reflexivity]);
    try (apply mk_cq, mild_step; reflexivity).
  - cbn [Conv.step]. destruct (ssubscribed (csubs σ k)); [reflexivity|]. cbn [Conv.subs]. rewrite Conv.set_sub_eq. reflexivity.
  - cbn [Conv.step]. destruct (sgone (csubs σ k)); [destruct cl|]; cbn [Conv.subs]; rewrite ?Conv.set_sub_eq; reflexivity.
Qed.
Lemma cq_others acts : Forall nocq acts -> forall σ j, scq (csubs (fold_left cstep acts σ) j) = scq (csubs σ j).
Proof.
  induction 1 as [|a acts Ha _ IH]; intros σ j; cbn [fold_left]; [reflexivity|]. rewrite IH. apply cq_other, Ha.
Qed.
Lemma cq_runc σ i : scq (csubs (cstep σ (Conv.RunC upd i)) i) = tl (scq (csubs σ i)).
Proof. apply runc_kept. Qed.
Lemma cq_runc_other σ i j : j <> i -> scq (csubs (cstep σ (Conv.RunC upd i)) j) = scq (csubs σ j).
Proof. intros H. rewrite subs_other by (cbn [tgt]; congruence || discriminate). reflexivity. Qed.

Lemma hact_nocq m i a : hact m i a -> nocq a.
Proof. destruct a; cbn [hact]; try contradiction; intros _; split; try discriminate; intros; discriminate. Qed.
Lemma ext_cq m c i k1 k j : ext m c i k1 k -> scq (csubs (ts k) j) = scq (csubs (ts k1) j).
Proof.
  intros [(la&_&A2&A3) _ _ _ _ _ _ _]. rewrite A2. apply cq_others. eapply Forall_impl; [|exact A3]. apply hact_nocq.
Qed.

Definition head_sub (q : list qitem) (j : nat) : bool := match q with QSub i :: _ => Nat.eqb j i | _ => false end.

Lemma task_cq s c :
  let '(k, oi, nx, ms) := conn_task s c in
  forall j, scq (csubs (ts k) j) = if head_sub (cqueue (conns s c)) j then tl (scq (csubs (cv s) j)) else scq (csubs (cv s) j).
Proof.
  destruct (ct_spec s c) as [Eq|id q Eq Ec|id q i Eq Ec|id cnt q i Eq Ec|id cnt q Eq Ec|t q i Eq Ec|t q Eq Ec|i q Eq Eg|i q Eq Eg|i q Eq|q Eq];
    intros j; rewrite Eq; cbn [head_sub]; try reflexivity.
  - rewrite (ext_cq _ _ _ _ _ j (x_load false c (next s) _ (AReq id))). cbn [Core.emit Core.act Core.ts].
    apply cq_other. split; [discriminate|intros; discriminate].
  - rewrite (ext_cq _ _ _ _ _ j (ext_body_req s c (conns s c) id q i)). reflexivity.
  - rewrite (ext_cq _ _ _ _ _ j (ext_body_unsub s c (conns s c) id cnt q i)). reflexivity.
  - destruct (tokset (conns s c)); [|reflexivity]. rewrite (ext_cq _ _ _ _ _ j (x_reacc false c i _)). reflexivity.
  - rewrite (ext_cq _ _ _ _ _ j (ext_body_access s c (conns s c) q i)). reflexivity.
  - rewrite (ext_cq _ _ _ _ _ j (ext_body_sub s c (conns s c) q i)). cbn [Core.act Core.ts].
    destruct (Nat.eqb_spec j i) as [->|Hne]; [apply cq_runc|apply cq_runc_other, Hne].
  - unfold body_dispose. cbv zeta. cbn [Core.emit Core.sety Core.ts].
    match goal with |- context [fold_left actk ?l ?k0] => pose proof (sync_acts (cv s) l k0 eq_refl) as S1; pose proof (acts_ta l k0) as S2 end.
    unfold sync in S1. rewrite S1, S2. cbn [Core.ta List.app]. apply cq_others. apply Forall_forall. intros a Hin.
    apply in_map_iff in Hin. destruct Hin as (j' & <- & _). split; [discriminate|intros; discriminate].
Qed.

Lemma task_owner s c :
  let '(k, oi, nx, ms) := conn_task s c in forall i, oi = Some i -> i < next s -> owner (ty k) = owner (insts s i).
Proof.
  destruct (ct_spec s c) as [Eq|id q Eq Ec|id q i' Eq Ec|id cnt q i' Eq Ec|id cnt q Eq Ec|t q i' Eq Ec|t q Eq Ec|i' q Eq Eg|i' q Eq Eg|i' q Eq|q Eq];
    intros i E Hi; try discriminate E; try (injection E as <-).
  - lia.
  - apply (e_own _ _ _ _ _ (ext_body_req s c (conns s c) id q i')).
  - apply (e_own _ _ _ _ _ (ext_body_unsub s c (conns s c) id cnt q i')).
  - destruct (tokset (conns s c)); [|reflexivity].
    exact (e_own _ _ _ _ _ (x_reacc false c i' (K0 s (xtok (conns s c) q t) (insts s i')))).
  - reflexivity.
  - apply (e_own _ _ _ _ _ (ext_body_access s c (conns s c) q i')).
  - apply (e_own _ _ _ _ _ (ext_body_sub s c (conns s c) q i')).
  - unfold body_dispose. cbv zeta. cbn [Core.emit Core.sety Core.ty Core.upd_y owner].
    match goal with |- context [fold_left actk ?l ?k0] => destruct (acts_frame l k0) as (_&S4&_) end. rewrite S4. cbn [Core.ty]. rewrite E. reflexivity.
Qed.

(* a task either still serves its live instance, which its connection holds with a positive count, or has given it up *)
Definition SH (i : nat) (k : tk_) : Prop :=
  (gone_ i k = false /\ cur (tx k) = Some i /\ 0 < direct (tx k)) \/ (gone_ i k = true /\ cur (tx k) = None /\ direct (tx k) = 0).

Lemma gone_act i k a :
  gone_ i (actk k a) = match a with Conv.Dispose _ j _ => Nat.eqb i j || gone_ i k | _ => gone_ i k end.
Proof. unfold Core.gone_, Core.me. cbn [Core.act Core.ts]. apply gone_step. Qed.

Lemma sh_mild c i k k' : ext true c i k k' -> SH i k -> SH i k'.
Proof. intros He H. destruct (ext_mild c i k k' He) as (A&B). unfold SH. rewrite A, B. exact H. Qed.
Lemma sh_sety i k y : SH i k -> SH i (sety k y).
Proof. intros H. exact H. Qed.

Lemma sh_remove i k n : SH i k -> SH i (remove_direct i k n).
Proof.
  intros H. unfold Core.remove_direct. destruct (Nat.eqb_spec (direct (tx k)) 0) as [E0|E0]; [exact H|]. cbv zeta.
  cbn [Core.setx Core.tx Core.with_cd direct].
  destruct H as [(G&C&D)|(G&C&D)]; [|congruence].
  destruct (Nat.eqb_spec (direct (tx k) - n) 0) as [Ez|Ez].
  - unfold Core.dispose_t.
    change (gone_ i (setx k (Core.with_cd (tx k) (cur (tx k)) (direct (tx k) - n)))) with (gone_ i k). rewrite G. cbv zeta.
    right. cbn [Core.setx Core.sety Core.tx Core.ty Core.with_cd cur direct Core.act].
    split; [|split; [reflexivity|exact Ez]].
    change (gone_ i (actk k (Conv.Dispose upd i false)) = true). rewrite gone_act, Nat.eqb_refl. reflexivity.
  - left. cbn [Core.setx Core.tx Core.with_cd cur direct]. repeat split; [exact G|exact C|lia].
Qed.
Lemma sh_unsubd c i k : SH i k -> SH i (unsubscribe_direct c i k).
Proof. intros H. unfold Core.unsubscribe_direct. destruct (Nat.ltb 0 (direct (tx k))); [|exact H]. exact (sh_remove _ _ _ H). Qed.
Lemma sh_run_cb c i g k b : SH i k -> SH i (run_cb c i g k b).
Proof.
  intros H. unfold Core.run_cb. destruct b as [id|].
  - destruct g.
    + destruct (gone_ i k); [exact H|]. eapply sh_mild; [apply x_ready|exact H].
    + apply sh_remove, H.
  - eapply sh_mild; [apply x_unqueue|]. destruct g; [exact H|apply sh_unsubd, H].
Qed.
Lemma sh_run_cbs c i g l : forall k, SH i k -> SH i (fold_left (run_cb c i g) l k).
Proof. exact (fold_keeps (SH i) (run_cb c i g) (sh_run_cb c i g) l). Qed.

Lemma sh_body_req s c x id q i : sgone (csubs (cv s) i) = false -> SH i (body_req s c x id q i).
Proof.
  intros G. assert (H0 : SH i (K0 s (Core.with_cd (Core.with_q x q) (Some i) (S (direct x))) (insts s i))).
  { left. repeat split; [exact G|cbn; lia]. }
  unfold body_req. cbv zeta. destruct (acc (insts s i)) as [[|]|].
  - eapply sh_mild; [apply x_ready|exact H0].
  - apply sh_remove, H0.
  - eapply sh_mild; [apply x_load|exact H0].
Qed.
Lemma sh_body_unsub s c x id cnt q i : sgone (csubs (cv s) i) = false -> cur x = Some i -> 0 < direct x ->
  SH i (body_unsub s c x id cnt q i).
Proof.
  intros G C D. assert (H0 : SH i (K0 s (Core.with_q x q) (insts s i))) by (left; repeat split; assumption).
  unfold body_unsub. cbv zeta. destruct (Nat.eqb cnt 0); [exact H0|]. destruct (Nat.leb cnt (direct x)); [|exact H0].
  apply sh_remove. destruct (Nat.eqb (direct x - cnt) 0); exact H0.
Qed.
Lemma sh_body_access s c x q i : sgone (csubs (cv s) i) = false -> cur x = Some i -> 0 < direct x ->
  SH i (body_access s c x q i).
Proof.
  intros G C D. assert (H0 : SH i (K0 s (Core.with_q x q) (insts s i))) by (left; repeat split; assumption).
  unfold body_access. cbv zeta. destruct (ans (insts s i)) as [g|]; [|exact H0]. apply sh_run_cbs. exact H0.
Qed.
Lemma sh_body_sub s c x q i : sgone (csubs (cv s) i) = false -> cur x = Some i -> 0 < direct x ->
  SH i (body_sub s c x q i).
Proof.
  intros G C D. assert (H0 : SH i (actk (K0 s (Core.with_q x q) (insts s i)) (Conv.RunC upd i))).
  { left. rewrite gone_act. repeat split; assumption. }
  unfold body_sub. cbv zeta. destruct (scq (csubs (cv s) i)) as [|[|e|] q'].
  - exact H0.
  - rewrite G. eapply sh_mild; [apply x_respond, ext_refl|]. exact H0.
  - exact H0.
  - eapply sh_mild; [apply x_reacc|exact H0].
Qed.

Lemma tact_tgt oi a : tact oi a -> tgt a = oi /\ a <> Conv.RunE upd /\ forall n, a <> Conv.SvcNop upd n.
Proof.
  destruct a as [u| | |n| |k|k cl| |k|k n|k n|k]; cbn [tact tgt]; try contradiction; intros X;
    (split; [|split; [discriminate|intros; discriminate]]); try (symmetry; exact X).
  destruct X as [X _]. symmetry; exact X.
Qed.

Lemma body_sub_gone s c x q i : CInv (cv s) -> sgone (csubs (cv s) i) = true ->
  let k := body_sub s c x q i in
  tx k = Core.with_q x q /\ ty k = insts s i /\ to k = [] /\ ta k = [Conv.RunC upd i] /\ ts k = cstep (cv s) (Conv.RunC upd i).
Proof.
  intros Hinv G. cbv zeta. unfold body_sub. cbv zeta. destruct (scq (csubs (cv s) i)) as [|[|e|] q'].
  - repeat split.
  - rewrite G. repeat split.
  - rewrite (Conv.igl _ _ _ _ Hinv i G). cbn [andb]. repeat split.
  - unfold Core.reaccess. rewrite gone_act. unfold Core.gone_, Core.me. cbn [Core.ts]. rewrite G. repeat split.
Qed.

Lemma in_insts_of s c j : In j (Core.insts_of val upd s c) <-> j < next s /\ Core.owner (insts s j) = c.
Proof. unfold Core.insts_of. rewrite filter_In, in_seq, Nat.eqb_eq. split; intros [A B]; split; auto; lia. Qed.

Definition qsubs_for (σ σ' : cst) (own : nat -> nat) (c : nat) (l : list nat) : list qitem :=
  map QSub (filter (fun i => Core.grew val upd σ σ' i && Nat.eqb (own i) c) l).
Record same_rec (x' x : conn) : Prop := {
  sr_cur : cur x' = cur x; sr_direct : direct x' = direct x; sr_disc : disc x' = disc x;
  sr_tokset : tokset x' = tokset x; sr_tok : tok x' = tok x }.
Lemma same_rec_refl x : same_rec x x.
Proof. repeat split. Qed.
Lemma same_rec_trans x y z : same_rec x y -> same_rec y z -> same_rec x z.
Proof. intros [A B C D E] [A' B' C' D' E']. constructor; congruence. Qed.

Lemma fan_gen σ σ' own : forall l f c,
  let f' := fold_left (fun g i => if Core.grew val upd σ σ' i then Core.set_conn g (own i) (Core.push_q (g (own i)) (QSub i)) else g) l f in
  cqueue (f' c) = cqueue (f c) ++ qsubs_for σ σ' own c l /\ same_rec (f' c) (f c).
Proof.
  induction l as [|a l IH]; intros f c; cbn [fold_left].
  - unfold qsubs_for. cbn. rewrite app_nil_r. split; [reflexivity|apply same_rec_refl].
  - cbn zeta in IH. destruct (IH (if Core.grew val upd σ σ' a then Core.set_conn f (own a) (Core.push_q (f (own a)) (QSub a)) else f) c) as (A&B).
    rewrite A. unfold qsubs_for. cbn [filter]. destruct (Core.grew val upd σ σ' a); cbn [andb]; [|auto].
    split.
    + unfold Core.set_conn. rewrite (Nat.eqb_sym (own a) c). destruct (Nat.eqb c (own a)) eqn:E; [|reflexivity].
      apply Nat.eqb_eq in E. subst c. cbn [map Core.push_q Core.with_q cqueue]. rewrite <- app_assoc. reflexivity.
    + eapply same_rec_trans; [exact B|]. unfold Core.set_conn. destruct (Nat.eqb c (own a)) eqn:E; [|apply same_rec_refl].
      apply Nat.eqb_eq in E. subst c. repeat split.
Qed.
Lemma fan_spec σ σ' own n f c :
  let f' := Core.fan val upd σ σ' own n f in
  cqueue (f' c) = cqueue (f c) ++ qsubs_for σ σ' own c (seq 0 n) /\ same_rec (f' c) (f c).
Proof. apply fan_gen. Qed.

Definition qacc_for (σ : cst) (own : nat -> nat) (c : nat) : list qitem :=
  match Core.nop_head val upd σ with
  | Some i => if Core.is_closed val upd σ i then [] else if Nat.eqb c (own i) then [QAccess i] else []
  | None => []
  end.
Lemma pass_spec σ own f c :
  let f' := Core.pass val upd σ own f in
  cqueue (f' c) = cqueue (f c) ++ qacc_for σ own c /\ same_rec (f' c) (f c).
Proof.
  assert (Same : cqueue (f c) = cqueue (f c) ++ [] /\ same_rec (f c) (f c)) by (rewrite app_nil_r; split; [reflexivity|apply same_rec_refl]).
  cbn zeta. unfold Core.pass, qacc_for. destruct (Core.nop_head val upd σ) as [i|]; [|exact Same].
  destruct (Core.is_closed val upd σ i); [exact Same|]. unfold Core.set_conn. destruct (Nat.eqb c (own i)) eqn:E; [|exact Same].
  apply Nat.eqb_eq in E. subst c. cbn [Core.push_q Core.with_q cqueue]. split; [reflexivity|repeat split].
Qed.
Lemma grant_conns σ σ' own n f c :
  let f' := Core.pass val upd σ own (Core.fan val upd σ σ' own n f) in
  cqueue (f' c) = (cqueue (f c) ++ qsubs_for σ σ' own c (seq 0 n)) ++ qacc_for σ own c /\ same_rec (f' c) (f c).
Proof.
  cbn zeta. destruct (pass_spec σ own (Core.fan val upd σ σ' own n f) c) as (A&B).
  destruct (fan_spec σ σ' own n f c) as (A'&B'). rewrite A, A'. split; [reflexivity|eapply same_rec_trans; eassumption].
Qed.
Lemma in_qsubs_for σ σ' own c n it : In it (qsubs_for σ σ' own c (seq 0 n)) -> exists i, it = QSub i /\ i < n /\ own i = c.
Proof.
  unfold qsubs_for. intros H. apply in_map_iff in H. destruct H as (i & <- & H). apply filter_In in H. destruct H as [H1 H2].
  apply in_seq in H1. apply andb_prop in H2. destruct H2 as [_ H2]. apply Nat.eqb_eq in H2. exists i. repeat split; [lia|exact H2].
Qed.
Lemma in_qacc_for σ own c it : In it (qacc_for σ own c) -> exists i, it = QAccess i /\ own i = c /\ In (Conv.INop val upd i) (cqe σ).
Proof.
  unfold qacc_for, Core.nop_head. destruct (cqe σ) as [|[u| |v|k|k| |n] q]; try (intros []).
  destruct (Core.is_closed val upd σ n); [intros []|]. destruct (Nat.eqb_spec c (own n)) as [->|]; [|intros []].
  intros [<-|[]]. exists n. repeat split. left; reflexivity.
Qed.

Lemma set_conn_eq f c x : Core.set_conn f c x c = x.
Proof. unfold Core.set_conn. rewrite Nat.eqb_refl. reflexivity. Qed.
Lemma set_conn_neq f c x c' : c' <> c -> Core.set_conn f c x c' = f c'.
Proof. intros H. unfold Core.set_conn. apply Nat.eqb_neq in H. rewrite H. reflexivity. Qed.
Lemma set_inst_eq f i y : Core.set_inst f i y i = y.
Proof. unfold Core.set_inst. rewrite Nat.eqb_refl. reflexivity. Qed.
Lemma set_inst_neq f i y j : j <> i -> Core.set_inst f i y j = f j.
Proof. intros H. unfold Core.set_inst. apply Nat.eqb_neq in H. rewrite H. reflexivity. Qed.
Lemma set_inst_same f i j : Core.set_inst f i (f i) j = f j.
Proof. unfold Core.set_inst. destruct (Nat.eqb_spec j i) as [->|_]; reflexivity. Qed.

Lemma conns_other s c0 c : c <> c0 -> conns (fst (step s (Core.GrantConn upd c0))) c = conns s c.
Proof.
  intros Hne. apply grant_ind; [reflexivity|]. intros it q k oi nx ms _ _ _. apply set_conn_neq, Hne.
Qed.

Lemma grant_q s c :
  cqueue (conns (fst (step s (Core.GrantConn upd c))) c) = tl (cqueue (conns s c)) /\
  disc (conns (fst (step s (Core.GrantConn upd c))) c) = disc (conns s c).
Proof.
  apply grant_ind; [intros E; cbn [fst]; rewrite E; auto|]. intros it q k oi nx ms _ _ T. cbn [fst Core.conns]. rewrite set_conn_eq, (t_queue T), (t_disc T). auto.
Qed.

Definition nongrant (o : Core.op upd) : Prop := forall c, o <> Core.GrantConn upd c.
Lemma grant_dec (o : Core.op upd) : (exists c, o = Core.GrantConn upd c) \/ nongrant o.
Proof. destruct o; try (right; intros c0 E; discriminate E). left. eexists. reflexivity. Qed.

Definition pushed (s : st_) (o : Core.op upd) (c : nat) : list qitem :=
  match o with
  | Core.CSub _ c' id => if Nat.eqb c c' && negb (disc (conns s c')) then [QReq id] else []
  | Core.CUnsub _ c' id n => if Nat.eqb c c' && negb (disc (conns s c')) then [QUnsub id n] else []
  | Core.Disc _ c' => if Nat.eqb c c' && negb (disc (conns s c')) then [QDispose] else []
  | Core.ConnToken _ c' t => if Nat.eqb c c' && negb (Core.is_done (conns s c')) then [QToken t] else []
  | Core.GrantEs _ =>
      qsubs_for (cv s) (cstep (cv s) (Conv.RunE upd)) (fun i => owner (insts s i)) c (seq 0 (next s)) ++
      qacc_for (cv s) (fun i => owner (insts s i)) c
  | _ => []
  end.

Set Implicit Arguments.
Record conn_kept (x' x : conn) (l : list qitem) (leaves : Prop) : Prop := {
  nc_queue : cqueue x' = cqueue x ++ l; nc_cur : cur x' = cur x; nc_direct : direct x' = direct x;
  nc_tokset : tokset x' = tokset x; nc_tok : tok x' = tok x; nc_disc : disc x' = disc x \/ leaves /\ disc x' = true }.
(* A step that is no grant leaves the instance table alone but for the answer it delivers, appends [pushed] to the connection
   queues and changes nothing else of a connection record but [disc] (the client leaving); it sends at most the get request. *)
Record nongrant_to (s : st_) (o : Core.op upd) (s' : st_) (outs : list out_) : Prop := {
  ng_next : next s' = next s; ng_mqsub : mqsub s' = mqsub s;
  ng_insts : forall j, insts s' j = insts s j \/
     exists g, o = Core.MqAccess upd j g /\
       insts s' j = Core.upd_y (insts s j) (acb (insts s j)) (rcb (insts s j)) (acc (insts s j)) (inflight (insts s j)) (Some g)
                      (reflag (insts s j)) (rq (insts s j)) (lost (insts s j));
  ng_conn : forall c, conn_kept (conns s' c) (conns s c) (pushed s o c) (o = Core.Disc upd c);
  ng_out : outs = [] \/ outs = [OGetReq] }.
Unset Implicit Arguments.

Lemma nongrant_step s o : nongrant o -> nongrant_to s o (fst (step s o)) (snd (step s o)).
Proof.
  intros Hng.
  assert (Same : forall c P, conn_kept (conns s c) (conns s c) [] P) by (intros c0 P; constructor; rewrite ?app_nil_r; auto).
  assert (Push : forall c' it (b : bool) cl,
            let x := conns s c' in
            let x' := {| cqueue := cqueue x ++ [it]; cur := cur x; direct := direct x; tokset := tokset x; tok := tok x;
                         disc := if b then true else disc x |} in
            (b = true -> o = Core.Disc upd c') ->
            conn_kept (Core.set_conn (conns s) c' x' cl) (conns s cl) (if Nat.eqb cl c' then [it] else []) (o = Core.Disc upd cl)).
  { intros c' it b cl x x' Hb. unfold Core.set_conn. destruct (Nat.eqb_spec cl c') as [->|_]; [|apply Same].
    subst x'. constructor; cbn; auto. destruct b; [right; auto|left; reflexivity]. }
  destruct o as [c' id|c' id n|c'|c' t|i g| |u| | | |c']; unfold Core.step; try solve [constructor; auto; intros c; apply Same].
  1-4: match goal with |- context [if ?b then _ else _] => destruct b eqn:Ed end; cbn [fst snd]; constructor;
    cbn [Core.next Core.mqsub Core.insts Core.conns]; auto; intros cl; cbn [pushed]; rewrite Ed; cbn [negb];
    rewrite ?andb_false_r, ?andb_true_r; [apply Same|].
  - apply (Push c' (QReq id) false). discriminate.
  - apply (Push c' (QUnsub id n) false). discriminate.
  - apply (Push c' QDispose true). reflexivity.
  - apply (Push c' (QToken t) false). discriminate.
  - destruct (_ && _); cbn [fst snd]; constructor; cbn [Core.next Core.mqsub Core.insts Core.conns pushed]; auto.
    intros j. unfold Core.set_inst. destruct (Nat.eqb_spec j i) as [->|_]; [right; eexists; split; reflexivity|left; reflexivity].
  - cbn [fst snd Core.acts_of fold_left]. constructor; cbn [Core.next Core.mqsub Core.insts Core.conns]; auto.
    + intros cl. match goal with |- context [Core.pass _ _ ?σ ?own (Core.fan _ _ _ ?σ' _ ?n ?f)] =>
        destruct (grant_conns σ σ' own n f cl) as (B&[Ecur Edirect Edisc Etokset Etok]) end.
      constructor; auto. rewrite B. symmetry. apply app_assoc.
    + destruct (_ && _); auto.
  - exfalso. exact (Hng c' eq_refl).
Qed.
Lemma nongrant_out s o x : nongrant o -> In x (snd (step s o)) -> x = OGetReq.
Proof. intros Hng. destruct (ng_out (nongrant_step s o Hng)) as [-> | ->]; [intros []|intros [<-|[]]; reflexivity]. Qed.

Lemma disc_mono s o c : disc (conns s c) = true -> disc (conns (fst (step s o)) c) = true.
Proof.
  intros H. destruct (grant_dec o) as [[c0 ->]|Hng].
  - destruct (Nat.eq_dec c c0) as [->|Hne]; [rewrite (proj2 (grant_q s c0))|rewrite conns_other by exact Hne]; exact H.
  - destruct (nc_disc (ng_conn (nongrant_step s o Hng) c)) as [->|[_ E]]; assumption.
Qed.
Lemma disc_back s o c : disc (conns (fst (step s o)) c) = false -> disc (conns s c) = false.
Proof. intros H. destruct (disc (conns s c)) eqn:E; [|reflexivity]. rewrite (disc_mono s o c E) in H. discriminate. Qed.

Notation isget := (Core.is_getreq val upd).
Notation issub := (Core.is_mqsub val upd).
Notation cnt_get := (Core.count_out val upd (Core.is_getreq val upd)).
Notation cnt_sub := (Core.count_out val upd (Core.is_mqsub val upd)).

Definition plain (o : out_) : Prop := isget o = false /\ issub o = false.

Lemma count_app (f : out_ -> bool) l1 l2 : Core.count_out val upd f (l1 ++ l2) = Core.count_out val upd f l1 + Core.count_out val upd f l2.
Proof. unfold Core.count_out. rewrite filter_app, app_length. reflexivity. Qed.
Lemma count_plain l : Forall plain l -> cnt_get l = 0 /\ cnt_sub l = 0.
Proof.
  induction 1 as [|x l [Hg Hs] _ [IH1 IH2]]; [split; reflexivity|].
  unfold Core.count_out in *. cbn [filter]. rewrite Hg, Hs. split; assumption.
Qed.
Lemma split_in {A} (l1 l2 pre post : list A) x : l1 ++ l2 = pre ++ x :: post ->
  (exists post1, l1 = pre ++ x :: post1 /\ post = post1 ++ l2) \/ (exists pre2, pre = l1 ++ pre2 /\ l2 = pre2 ++ x :: post).
Proof.
  intros H. apply app_eq_app in H as [l [[-> H]|[-> H]]]; [|right; exists l; auto].
  destruct l as [|y l]; cbn [List.app] in H; [right; exists []; rewrite !app_nil_r; auto|]. injection H as <- ->. left. exists l. auto.
Qed.

(* the cache worker meets the first subscriber in the resource's queue: it sends the get request *)
Definition first_get (s : st_) (o : Core.op upd) : bool :=
  match o with Core.GrantEs _ => Core.is_add_head val upd (cv s) && negb (getreq s) | _ => false end.
Lemma nongrant_get s o : nongrant o ->
  getreq (fst (step s o)) = getreq s || first_get s o /\ snd (step s o) = if first_get s o then [OGetReq] else [].
Proof.
  intros Hng. destruct o; try (destruct (Hng _ eq_refl)); unfold Core.step, first_get;
    try (destruct (Core.is_add_head val upd (cv s)), (getreq s); split; reflexivity);
    try match goal with |- context [if ?b then _ else _] => destruct b end; rewrite orb_false_r; split; reflexivity.
Qed.
Lemma nongrant_acts s o : nongrant o -> Forall (fun a => tgt a = None) (acts_of s o).
Proof.
  intros Hng. destruct o; cbn [Core.acts_of]; try (destruct (Hng _ eq_refl));
    repeat match goal with |- context [if ?b then _ else _] => destruct b end; repeat constructor.
Qed.

Definition get_after_sub (outs : list out_) : Prop :=
  forall pre o post, outs = pre ++ o :: post -> isget o = true -> cnt_sub pre = 1.
(* the two flags count the two requests; the last clause carries the induction: before the first subscribe request no
   instance exists and no subscriber waits in the resource's queue, so the cache worker cannot ask for the resource *)
Record GO (s : st_) (outs : list out_) : Prop := {
  g_get : cnt_get outs = Conv.b2n (getreq s);
  g_sub : cnt_sub outs = Conv.b2n (mqsub s);
  g_gs : getreq s = true -> mqsub s = true;
  g_pre : get_after_sub outs;
  g_0 : mqsub s = false -> next s = 0 /\ forall j, ~ In (Conv.IAddSub val upd j) (cqe (cv s)) }.

Lemma get_after_sub_app outs o : get_after_sub outs -> (forall x, In x o -> isget x = true -> o = [x] /\ cnt_sub outs = 1) ->
  get_after_sub (outs ++ o).
Proof.
  intros H Ho pre x post E Hx. apply split_in in E. destruct E as [(post' & E & _)|(l & -> & E)]; [eapply H; eassumption|].
  destruct (Ho x) as [Eo Hc]; [rewrite E; apply in_elt|exact Hx|]. rewrite Eo in E.
  destruct l as [|y l]; [rewrite app_nil_r; exact Hc|destruct l; discriminate E].
Qed.

Lemma go_frame s outs s' o acts : GO s outs -> Forall plain o -> getreq s' = getreq s -> mqsub s' = mqsub s ->
  cv s' = fold_left cstep acts (cv s) ->
  (mqsub s = false -> next s' = next s /\ forall j, ~ In (Conv.Subscribe upd j) acts) -> GO s' (outs ++ o).
Proof.
  intros [H1 H2 H3 H4 H5] Hp Eg Em Ec H0. destruct (count_plain o Hp) as [Cg Cs].
  constructor.
  - rewrite count_app, Cg, Eg, H1. lia.
  - rewrite count_app, Cs, Em, H2. lia.
  - rewrite Eg, Em. exact H3.
  - apply get_after_sub_app; [exact H4|]. intros x Hin Hx. destruct (proj1 (Forall_forall _ _) Hp x Hin). congruence.
  - rewrite Em. intros Hm. destruct (H5 Hm) as [A B], (H0 Hm) as [En Ha]. split; [congruence|].
    intros j Hin. rewrite Ec in Hin. apply add_steps in Hin. destruct Hin as [Hin|Hin]; [exact (B j Hin)|exact (Ha j Hin)].
Qed.

Lemma go_step s outs o : GO s outs -> GO (fst (step s o)) (outs ++ snd (step s o)).
Proof.
  intros H. pose proof H as [H1 H2 H3 H4 H5]. destruct (grant_dec o) as [[c ->]|Hng].
  - apply grant_ind; [intros _; cbn [fst snd]; rewrite app_nil_r; exact H|]. intros it q k oi nx ms _ _ T. cbn [fst snd].
    pose proof (t_sync T) as Hs. unfold sync in Hs. destruct (t_kind T) as [P|[N|D]].
    + rewrite (tp_next P), (tp_mqsub P). apply (go_frame s outs _ _ (ta k)); auto.
      * eapply Forall_impl; [|exact (tp_outs P)]. intros x. destruct x; cbn [tout]; try contradiction; intros; split; reflexivity.
      * intros _. split; [reflexivity|]. intros j Hin. exact (proj1 (Forall_forall _ _) (tp_acts P) _ Hin).
    + rewrite (tn_next N), (tn_mqsub N), (tn_outs N). destruct (mqsub s) eqn:Em.
      * apply (go_frame s outs _ _ (ta k)); [exact H|repeat constructor|reflexivity|cbn [Core.mqsub]; congruence|exact Hs|congruence].
      * constructor; cbn [Core.getreq Core.mqsub].
        -- rewrite count_app, H1. cbn. lia.
        -- rewrite count_app, H2. reflexivity.
        -- reflexivity.
        -- apply get_after_sub_app; [exact H4|]. intros x [<-|[<-|[]]] Hx; discriminate Hx.
        -- discriminate.
    + rewrite (td_next D), (td_mqsub D), (td_outs D). apply (go_frame s outs _ _ (ta k)); auto; [repeat constructor|].
      intros _. split; [reflexivity|]. rewrite (td_acts D). intros j Hin. apply in_map_iff in Hin. destruct Hin as (x&E&_). discriminate E.
  - pose proof (nongrant_step s o Hng) as N. destruct (nongrant_get s o Hng) as [Eg ->]. destruct (first_get s o) eqn:Ef.
    + destruct o; try discriminate Ef. apply andb_prop in Ef as [Eh Eg0]. apply negb_true_iff in Eg0.
      assert (Hm : mqsub s = true).
      { destruct (mqsub s) eqn:Em; [reflexivity|]. destruct (H5 eq_refl) as (A&B). unfold Core.is_add_head in Eh.
        destruct (cqe (cv s)) as [|[u| |v|k|k| |n] q] eqn:Eq; try discriminate Eh. exfalso. apply (B k). left; reflexivity. }
      constructor; rewrite ?Eg, ?(ng_mqsub N), ?Hm, ?orb_true_r.
      * rewrite count_app, H1, Eg0. reflexivity.
      * rewrite count_app, H2, Hm. reflexivity.
      * reflexivity.
      * apply get_after_sub_app; [exact H4|]. intros x [<-|[]] _. rewrite H2, Hm. split; reflexivity.
      * discriminate.
    + rewrite orb_false_r in Eg. apply (go_frame s outs _ _ (acts_of s o)); [exact H|constructor|exact Eg|exact (ng_mqsub N)|apply step_cv|].
      intros _. split; [exact (ng_next N)|]. intros j Hin. discriminate (proj1 (Forall_forall _ _) (nongrant_acts s o Hng) _ Hin).
Qed.

Lemma go_init t : GO (Core.init val upd d t) [].
Proof.
  constructor; cbn; try reflexivity; auto.
  - intros pre o post E. destruct pre; discriminate E.
Qed.
Lemma go_exec t ops : GO (fst (exec t ops)) (snd (exec t ops)).
Proof. apply exec_ind; [apply go_init|]. intros ops' o s outs H. apply go_step, H. Qed.

Theorem core_get_once_under_subscription : forall t ops,
  let outs := snd (exec t ops) in
  Core.count_out val upd (Core.is_getreq val upd) outs <= 1 /\
  Core.count_out val upd (Core.is_mqsub val upd) outs <= 1 /\
  forall pre o post, outs = pre ++ o :: post -> Core.is_getreq val upd o = true ->
    Core.count_out val upd (Core.is_mqsub val upd) pre = 1.
Proof.
  intros t ops outs. destruct (go_exec t ops) as [H1 H2 H3 H4 H5]. fold outs in H1, H2, H4.
  split; [rewrite H1; apply Conv.b2n_le|]. split; [rewrite H2; apply Conv.b2n_le|]. exact H4.
Qed.

Lemma tout_for c oi x c' : tout c oi x -> Core.for_conn val upd c' x = true -> c' = c.
Proof.
  destruct x; cbn [tout Core.for_conn]; try contradiction; try discriminate; intros H E; apply Nat.eqb_eq in E; intuition congruence.
Qed.
Lemma out_tag s o c' x : In x (snd (step s o)) -> Core.for_conn val upd c' x = true -> o = Core.GrantConn upd c'.
Proof.
  intros H Hf. destruct (grant_dec o) as [[c ->]|Hng]; [|rewrite (nongrant_out s o x Hng H) in Hf; discriminate].
  revert H. apply grant_ind; [intros _ []|]. intros it q k oi nx ms _ _ T H. cbn [fst snd] in *.
  f_equal. destruct (t_kind T) as [P|[N|D]].
  - symmetry. exact (tout_for _ _ _ _ (proj1 (Forall_forall _ _) (tp_outs P) x H) Hf).
  - rewrite (tn_outs N) in H. apply in_app_or in H as [H|[<-|[]]]; [|apply Nat.eqb_eq, Hf].
    destruct (mqsub s); [destruct H|]. destruct H as [<-|[]]. discriminate Hf.
  - rewrite (td_outs D) in H. destruct H as [<-|[]]. discriminate Hf.
Qed.
Lemma other_quiet s o c x : o <> Core.GrantConn upd c -> In x (snd (step s o)) -> Core.for_conn val upd c x = false.
Proof. intros Ho Hx. destruct (Core.for_conn val upd c x) eqn:E; [|reflexivity]. destruct (Ho (out_tag s o c x Hx E)). Qed.

Definition is_qsub (i : nat) (it : qitem) : bool := match it with QSub j => Nat.eqb j i | _ => false end.
Definition cntq (i : nat) (q : list qitem) : nat := length (filter (is_qsub i) q).
Lemma cntq_app i q1 q2 : cntq i (q1 ++ q2) = cntq i q1 + cntq i q2.
Proof. unfold cntq. rewrite filter_app, app_length. reflexivity. Qed.
Lemma cntq_cons i it q : cntq i (it :: q) = (if is_qsub i it then 1 else 0) + cntq i q.
Proof. unfold cntq. cbn [filter]. destruct (is_qsub i it); reflexivity. Qed.
Lemma cntq_in i q : In (QSub i) q -> 1 <= cntq i q.
Proof.
  induction q as [|a q IH]; [intros []|]. intros [->|H]; unfold cntq in *; cbn [filter is_qsub].
  - rewrite Nat.eqb_refl. cbn [length]. lia.
  - destruct (is_qsub i a); cbn [length]; specialize (IH H); lia.
Qed.

Lemma tact_frame i acts σ : Forall (tact (Some i)) acts ->
  (forall j, j <> i -> csubs (fold_left cstep acts σ) j = csubs σ j) /\
  (forall n, In (Conv.INop val upd n) (cqe (fold_left cstep acts σ)) -> In (Conv.INop val upd n) (cqe σ)) /\
  Conv.rs_subs val upd (fold_left cstep acts σ) = Conv.rs_subs val upd σ.
Proof.
  intros H. rewrite Forall_forall in H. split; [|split].
  - intros j Hj. apply subs_others, Forall_forall. intros a Ha. destruct (tact_tgt _ _ (H a Ha)) as (A&B&_). split; [congruence|exact B].
  - intros n Hin. apply nop_steps in Hin. destruct Hin as [Hin|Hin]; [exact Hin|]. destruct (tact_tgt _ _ (H _ Hin)) as (_&_&C). destruct (C n eq_refl).
  - apply rs_subs_steps, Forall_forall. intros a Ha. apply (tact_tgt _ _ (H a Ha)).
Qed.

Notation g_AVal := Core.AVal.
Notation g_nreq l := (length (Core.ids_of l)).

(* The state of a live Subscription (subscription.go) between tasks: x its connection, y the instance, ld/sn/fl the
   loaded/sent/flag bits of its Conv subscriber (resourceSub != nil, the resource was sent to the client, queueFlag != 0).
   [more]: inside a task that still has waiting requests to serve; false between tasks. *)
Record g_V (i : nat) (more ld sn fl : bool) (x : Core.conn) (y : Core.inst) : Prop := {
  g_v_cur : Core.cur x = Some i;                  (* it is the one in c.subs[rid] *)
  g_v_dir : 0 < Core.direct x;                    (* held only while counted: tryDelete disposes at 0 *)
  (* queueReasonReaccess: events are held, the resource is with the client, the validation waits for an answer under way *)
  g_v_rq : Core.rq y = true -> fl = true /\ ld = true /\ sn = true /\ In g_AVal (Core.acb y) /\ Core.acc y = None /\ Core.inflight y = true;
  g_v_acb : Core.acb y <> [] -> Core.inflight y = true /\ Core.acc y = None;   (* loadAccess queues only without a verdict, and sends *)
  g_v_infl : Core.inflight y = true -> Core.acb y <> [];                       (* a request is out only for somebody waiting *)
  g_v_accn : Core.acc y = None -> Core.inflight y = true;   (* the verdict is dropped only by handleReaccess, which asks again *)
  g_v_accf : Core.acc y <> Some false;                      (* a denial disposes the subscription *)
  g_v_refl : Core.reflag y = true -> fl = true;             (* flagReaccess is set only while queueing *)
  g_v_flag : ld = true -> sn = true -> Core.rq y = false -> fl = false;
  g_v_sent : ld = true -> sn = false -> Core.acc y = Some true -> more = true;   (* granted and loaded: sent by the end of the task *)
  g_v_rcb : ld = false -> Core.acc y = Some true -> Core.rcb y = [] -> more = true;
  g_v_aval : In g_AVal (Core.acb y) -> Core.rq y = true;
  g_v_tl : ~ In g_AVal (tl (Core.acb y));         (* handleReaccess finds the list empty: the validation is its head *)
  g_v_nfl : fl = false -> Core.acc y <> None;
  g_v_rcbn : Core.rcb y <> [] -> Core.acc y <> None /\ ld = false;             (* readyCallbacks: granted, not loaded yet *)
  (* without a verdict every counted subscribe request is among those waiting, unless a validation is under way;
     this is where every AReq is taken to be a counted subscribe request *)
  g_v_cnt : Core.acc y = None -> In g_AVal (Core.acb y) \/ Core.direct x <= g_nreq (Core.acb y);
  g_v_cp : fl = false -> ld = true /\ sn = true;
  g_v_ans : Core.ans y <> None -> Core.inflight y = true }.

Lemma in_app_req (l : list Core.acbk) id : In g_AVal (l ++ [Core.AReq id]) <-> In g_AVal l.
Proof. rewrite in_app_iff. cbn. split; [intros [H|[H|[]]]; [exact H|discriminate H]|auto]. Qed.
Lemma tl_app_req (l : list Core.acbk) id : ~ In g_AVal (tl l) -> ~ In g_AVal (tl (l ++ [Core.AReq id])).
Proof. destruct l as [|a l]; cbn; [tauto|]. rewrite in_app_req. auto. Qed.
Lemma nreq_app_req (l : list Core.acbk) id : g_nreq (l ++ [Core.AReq id]) = S (g_nreq l).
Proof. unfold Core.ids_of. rewrite flat_map_app, app_length. cbn. lia. Qed.
Lemma acb_cases (l : list Core.acbk) : ~ In g_AVal (tl l) -> (exists r, l = g_AVal :: r /\ ~ In g_AVal r) \/ ~ In g_AVal l.
Proof.
  destruct l as [|[id|] r]; cbn [tl]; intros H; [right; intros []|right; intros [E|Hin]; [discriminate E|exact (H Hin)]|left; exists r; auto].
Qed.

(* g_V in four parts, each over the values it reads, so that an update of the two records keeps, by conversion, every part
   whose values it leaves alone: the connection's count against the requests waiting; the access request and who waits for
   it; why events are held; who waits for the resource. *)
Record Vcount (i : nat) (x : Core.conn) (ac : option bool) (a : list Core.acbk) : Prop := {
  c_cur : Core.cur x = Some i;
  c_dir : 0 < Core.direct x;
  c_cnt : ac = None -> In g_AVal a \/ Core.direct x <= g_nreq a }.
Record Vaccess (a : list Core.acbk) (ac : option bool) (inf : bool) (an : option bool) : Prop := {
  a_acb : a <> [] -> inf = true /\ ac = None;
  a_infl : inf = true -> a <> [];
  a_accn : ac = None -> inf = true;
  a_accf : ac <> Some false;
  a_tl : ~ In g_AVal (tl a);
  a_ans : an <> None -> inf = true }.
Record Vhold (ld sn fl : bool) (a : list Core.acbk) (ac : option bool) (inf rqv rf : bool) : Prop := {
  h_rq : rqv = true -> fl = true /\ ld = true /\ sn = true /\ In g_AVal a /\ ac = None /\ inf = true;
  h_aval : In g_AVal a -> rqv = true;
  h_refl : rf = true -> fl = true;
  h_flag : ld = true -> sn = true -> rqv = false -> fl = false;
  h_nfl : fl = false -> ac <> None;
  h_cp : fl = false -> ld = true /\ sn = true }.
Record Vserve (more ld sn : bool) (ac : option bool) (r : list nat) : Prop := {
  s_sent : ld = true -> sn = false -> ac = Some true -> more = true;
  s_rcb : ld = false -> ac = Some true -> r = [] -> more = true;
  s_rcbn : r <> [] -> ac <> None /\ ld = false }.

Ltac splits := repeat match goal with |- _ /\ _ => split end.

Lemma V_parts i more ld sn fl x y : g_V i more ld sn fl x y <->
  Vcount i x (Core.acc y) (Core.acb y) /\ Vaccess (Core.acb y) (Core.acc y) (Core.inflight y) (Core.ans y) /\
  Vhold ld sn fl (Core.acb y) (Core.acc y) (Core.inflight y) (Core.rq y) (Core.reflag y) /\ Vserve more ld sn (Core.acc y) (Core.rcb y).
Proof. split; [intros []; splits; constructor; assumption|intros ([] & [] & [] & []); constructor; assumption]. Qed.

Ltac flds := cbn [Core.upd_y Core.owner Core.acb Core.rcb Core.acc Core.inflight Core.ans Core.reflag Core.rq Core.lost
                      Core.with_cd Core.cur Core.direct Core.cqueue Core.tok Core.tokset Core.disc].

Lemma count_verdict i x ac a ac' a' : Vcount i x ac a -> ac' <> None -> Vcount i x ac' a'.
Proof. intros [Cc Cd _] H. constructor; [exact Cc|exact Cd|]. intros E. destruct (H E). Qed.
Lemma access_asked b an : Vaccess [b] None true an.
Proof. constructor; cbn [tl In]; auto; discriminate. Qed.
Lemma access_idle : Vaccess [] (Some true) false None.
Proof. constructor; cbn [tl In]; auto; try discriminate; intros H; destruct H; reflexivity. Qed.
(* once the resource was sent nothing waits for it, whatever the verdict *)
Lemma serve_sent more more' sn ac ac' r : Vserve more true sn ac r -> Vserve more' true true ac' r.
Proof.
  intros [_ _ Sn]. constructor; try discriminate. intros E. destruct (Sn E) as [_ X]. discriminate X.
Qed.

Lemma V_conn i more ld sn fl x x' y : g_V i more ld sn fl x y -> Core.cur x' = Core.cur x -> 0 < Core.direct x' ->
  (Core.acc y = None -> Core.direct x' <= Core.direct x) -> g_V i more ld sn fl x' y.
Proof.
  intros H E Hd Hle. apply V_parts in H as ([Cc _ Cn] & HA & HH & HS). apply V_parts; splits; [|exact HA|exact HH|exact HS].
  constructor; [rewrite E; exact Cc|exact Hd|]. intros Ea. specialize (Hle Ea). destruct (Cn Ea) as [X|X]; [left; exact X|right; lia].
Qed.
Lemma V_x i more ld sn fl x x' y : g_V i more ld sn fl x y -> Core.cur x' = Core.cur x -> Core.direct x' = Core.direct x ->
  g_V i more ld sn fl x' y.
Proof. intros H E1 E2. apply (V_conn _ _ _ _ _ x); [exact H|exact E1|rewrite E2; exact (g_v_dir _ _ _ _ _ _ _ H)|rewrite E2; auto]. Qed.
Lemma V_more i ld sn fl x y : g_V i false ld sn fl x y -> g_V i true ld sn fl x y.
Proof.
  intros H. apply V_parts in H as (HC & HA & HH & [_ _ Sn]). apply V_parts; splits; [exact HC|exact HA|exact HH|].
  constructor; [reflexivity|reflexivity|exact Sn].
Qed.
Lemma V_done i more fl x y : g_V i more true true fl x y -> g_V i false true true fl x y.
Proof.
  intros H. apply V_parts in H as (HC & HA & HH & HS). apply V_parts; splits; [exact HC|exact HA|exact HH|exact (serve_sent _ _ _ _ _ _ HS)].
Qed.

Lemma V_idle i more ld sn fl x y : g_V i more ld sn fl x y -> Core.acc y <> None -> Core.acb y = [].
Proof.
  intros H Ha. destruct (Core.acb y) eqn:E; [reflexivity|]. destruct (g_v_acb _ _ _ _ _ _ _ H) as [_ X]; [rewrite E; discriminate|contradiction].
Qed.

Lemma V_join i ld sn fl x x' y id l : g_V i false ld sn fl x y -> Core.acc y = None ->
  Core.cur x' = Core.cur x -> Core.direct x' = S (Core.direct x) ->
  g_V i false ld sn fl x' (Core.upd_y y (Core.acb y ++ [Core.AReq id]) (Core.rcb y) (Core.acc y) true (Core.ans y) (Core.reflag y) (Core.rq y) l).
Proof.
  intros H Ha E1 E2. apply V_parts in H as ([Cc _ Cn] & [_ _ _ Af At _] & [Hrq Hav Hrf Hfg Hnf Hcp] & HS).
  apply V_parts; splits; flds; [| | |exact HS].
  - constructor; [rewrite E1; exact Cc|lia|]. intros _. rewrite in_app_req, nreq_app_req. destruct (Cn Ha) as [X|X]; [left; exact X|right; lia].
  - constructor; [|intros _ E; destruct (app_cons_not_nil _ _ _ (eq_sym E))|reflexivity|exact Af|apply tl_app_req, At|reflexivity].
    intros _. split; [reflexivity|exact Ha].
  - constructor; try assumption; rewrite in_app_req; [|exact Hav].
    intros E. destruct (Hrq E) as (A&B&C&D&F&_). repeat split; assumption.
Qed.

Lemma V_wait i more more' sn fl x y id l : g_V i more false sn fl x y -> Core.acc y = Some true ->
  g_V i more' false sn fl x (Core.upd_y y (Core.acb y) (Core.rcb y ++ [id]) (Core.acc y) (Core.inflight y) (Core.ans y) (Core.reflag y) (Core.rq y) l).
Proof.
  intros H Ha. apply V_parts in H as (HC & HA & HH & _). apply V_parts; splits; flds; [exact HC|exact HA|exact HH|].
  constructor; try discriminate; [intros _ _ E; destruct (app_cons_not_nil _ _ _ (eq_sym E))|].
  intros _. rewrite Ha. split; [discriminate|reflexivity].
Qed.

Lemma V_remember i more ld sn x y l : g_V i more ld sn true x y ->
  g_V i more ld sn true x (Core.upd_y y (Core.acb y) (Core.rcb y) (Core.acc y) (Core.inflight y) (Core.ans y) true (Core.rq y) l).
Proof.
  intros H. apply V_parts in H as (HC & HA & [Hrq Hav _ Hfg Hnf Hcp] & HS). apply V_parts; splits; flds; [exact HC|exact HA| |exact HS].
  constructor; try assumption. reflexivity.
Qed.

(* handleReaccess on a loaded subscription: the validation is the one continuation waiting, events are held *)
Lemma V_asked i more sn fl x y an l : g_V i more true sn fl x y ->
  g_V i false true true true x (Core.upd_y y [g_AVal] (Core.rcb y) None true an false true l).
Proof.
  intros H. apply V_parts in H as ([Cc Cd _] & _ & _ & HS). apply V_parts; splits; flds.
  - constructor; [exact Cc|exact Cd|]. intros _. left. left. reflexivity.
  - apply access_asked.
  - constructor; cbn [In]; try discriminate; auto 8.
  - exact (serve_sent _ _ _ _ _ _ HS).
Qed.

Lemma V_loaded i more sn fl x y l : g_V i false false sn fl x y -> more = true \/ Core.rcb y = [] ->
  g_V i more true false true x (Core.upd_y y (Core.acb y) [] (Core.acc y) (Core.inflight y) (Core.ans y) (Core.reflag y) (Core.rq y) l).
Proof.
  intros H Hm. apply V_parts in H as (HC & HA & [Hrq Hav _ _ _ _] & [_ Sr _]). apply V_parts; splits; flds; [exact HC|exact HA| |].
  - constructor; try discriminate; [|exact Hav|reflexivity].
    intros E. destruct (Hrq E) as (_&X&_). discriminate X.
  - constructor; try discriminate; [|intros E; destruct E; reflexivity].
    intros _ _ Ea. destruct Hm as [->|Hr]; [reflexivity|]. discriminate (Sr eq_refl Ea Hr).
Qed.

Lemma V_respond i more fl x y : g_V i more true false fl x y -> Core.reflag y = false -> Core.acc y <> None ->
  g_V i false true true false x y.
Proof.
  intros H Hr Ha. apply V_parts in H as (HC & HA & [Hrq Hav _ _ _ _] & HS).
  apply V_parts; splits; [exact HC|exact HA| |exact (serve_sent _ _ _ _ _ _ HS)].
  constructor; [|exact Hav|rewrite Hr; discriminate|reflexivity|intros _; exact Ha|split; reflexivity].
  intros E. destruct (Hrq E) as (_&_&_&_&X&_). destruct (Ha X).
Qed.

Lemma V_val_ok i ld sn fl x y l : g_V i false ld sn fl x y -> In g_AVal (Core.acb y) -> Core.reflag y = false ->
  g_V i false true true false x (Core.upd_y y [] (Core.rcb y) (Some true) false None (Core.reflag y) false l).
Proof.
  intros H Hin Hr. apply V_parts in H as (HC & _ & [Hrq Hav _ _ _ _] & HS). destruct (Hrq (Hav Hin)) as (_ & -> & _).
  apply V_parts; splits; flds; [apply (count_verdict _ _ _ _ _ _ HC); discriminate|apply access_idle| |exact (serve_sent _ _ _ _ _ _ HS)].
  rewrite Hr. constructor; cbn [In]; try discriminate; auto; contradiction.
Qed.
Lemma V_granted i ld sn fl x y l : g_V i false ld sn fl x y -> ~ In g_AVal (Core.acb y) ->
  g_V i true ld sn fl x (Core.upd_y y [] (Core.rcb y) (Some true) false None (Core.reflag y) (Core.rq y) l).
Proof.
  intros H Hn. apply V_parts in H as (HC & _ & [Hrq _ Hrf Hfg _ Hcp] & [_ _ Sn]).
  apply V_parts; splits; flds; [apply (count_verdict _ _ _ _ _ _ HC); discriminate|apply access_idle| |].
  - constructor; try assumption; [|intros []|discriminate].
    intros E. destruct (Hrq E) as (_&_&_&X&_). destruct (Hn X).
  - constructor; [reflexivity|reflexivity|]. intros E. destruct (Sn E) as [_ X]. split; [discriminate|exact X].
Qed.

Lemma V_answer i more ld sn fl x y g l : g_V i more ld sn fl x y -> Core.inflight y = true ->
  g_V i more ld sn fl x (Core.upd_y y (Core.acb y) (Core.rcb y) (Core.acc y) (Core.inflight y) (Some g) (Core.reflag y) (Core.rq y) l).
Proof.
  intros H Hi. apply V_parts in H as (HC & [Aa Ai An Af At _] & HH & HS). apply V_parts; splits; flds; [exact HC| |exact HH|exact HS].
  constructor; try assumption. intros _. exact Hi.
Qed.

Lemma V_new i x y id l : Core.acb y = [] ->
  g_V i false false false true (Core.with_cd x (Some i) 1)
    (Core.upd_y y (Core.acb y ++ [Core.AReq id]) [] None true None false false l).
Proof.
  intros Ha. rewrite Ha. apply V_parts; splits; flds; cbn [List.app]; [|apply access_asked| |].
  - constructor; cbn; auto.
  - constructor; try discriminate; auto. intros [E|[]]. discriminate E.
  - constructor; try discriminate. intros E. destruct E. reflexivity.
Qed.

(* along a task: instance i is live and g_V holds of the task's state ([TV]), or the task has disposed it and nothing
   waits on it ([TD]); [SH] is the same alternative without g_V *)
Definition TV (i : nat) (more : bool) (k : tk_) : Prop :=
  gone_ i k = false /\ g_V i more (loaded_ i k) (sent_ i k) (flag_ i k) (tx k) (ty k).
Definition TD (i : nat) (k : tk_) : Prop :=
  gone_ i k = true /\ Core.cur (tx k) = None /\ Core.direct (tx k) = 0 /\ Core.rcb (ty k) = [] /\ Core.acb (ty k) = [].

Ltac k_unfold := unfold Core.gone_, Core.loaded_, Core.sent_, Core.flag_, Core.me in *;
            cbn [Core.ts Core.ta Core.tx Core.ty Core.to Core.act Core.emit Core.setx Core.sety] in *.

Section HandlersV.
Variables (c i : nat).

Lemma v_dispose k : gone_ i k = false -> Core.direct (tx k) = 0 -> Core.acb (ty k) = [] ->
  TD i (dispose_t i k) /\ to (dispose_t i k) = to k.
Proof.
  intros Hg Hd Ha. unfold Core.dispose_t. rewrite Hg. k_unfold. split; [|reflexivity]. split; [k_unfold; rewrite gone_step, Nat.eqb_refl; reflexivity|].
  flds. auto.
Qed.
Lemma v_remove_all k n : gone_ i k = false -> 0 < Core.direct (tx k) -> Core.direct (tx k) - n = 0 -> Core.acb (ty k) = [] ->
  TD i (remove_direct i k n) /\ to (remove_direct i k n) = to k.
Proof.
  intros Hg Hd Hn Ha. unfold Core.remove_direct. destruct (Nat.eqb_spec (Core.direct (tx k)) 0) as [E|_]; [lia|].
  k_unfold. flds. rewrite Hn. cbn [Nat.eqb].
  destruct (v_dispose (setx k (Core.with_cd (tx k) (Core.cur (tx k)) 0))) as [A B]; [k_unfold; exact Hg|reflexivity|exact Ha|].
  split; [exact A|rewrite B; reflexivity].
Qed.
Lemma remove_some k n : Core.direct (tx k) - n <> 0 ->
  remove_direct i k n = setx k (Core.with_cd (tx k) (Core.cur (tx k)) (Core.direct (tx k) - n)).
Proof.
  intros Hn. unfold Core.remove_direct. destruct (Nat.eqb_spec (Core.direct (tx k)) 0) as [E|_]; [lia|].
  k_unfold. flds. destruct (Nat.eqb_spec (Core.direct (tx k) - n) 0) as [E|_]; [contradiction|reflexivity].
Qed.

Lemma load_access_eq k b :
  ts (load_access c i k b) = ts k /\ tx (load_access c i k b) = tx k /\
  ty (load_access c i k b) = Core.upd_y (ty k) (Core.acb (ty k) ++ [b]) (Core.rcb (ty k)) (Core.acc (ty k)) true (Core.ans (ty k))
                                        (Core.reflag (ty k)) (Core.rq (ty k)) (Core.lost (ty k)).
Proof. unfold Core.load_access. cbv zeta. destruct (Core.inflight (ty k)) eqn:E; cbn [Core.emit Core.sety Core.ts Core.tx Core.ty]; rewrite ?E; auto. Qed.
Lemma hreacc_eq k : Core.direct (tx k) <> 0 ->
  let k' := handle_reaccess c i k in
  ts k' = cstep (ts k) (Conv.StartQueue upd i) /\ tx k' = tx k /\
  ty k' = Core.upd_y (ty k) (Core.acb (ty k) ++ [g_AVal]) (Core.rcb (ty k)) None true (Core.ans (ty k)) false true (Core.lost (ty k)).
Proof.
  intros Hd. cbv zeta. unfold Core.handle_reaccess. cbv zeta. cbn [Core.sety Core.tx]. apply Nat.eqb_neq in Hd. rewrite Hd.
  match goal with |- context [load_access c i ?K g_AVal] => destruct (load_access_eq K g_AVal) as (A&B&C) end.
  rewrite A, B, C. repeat split.
Qed.

(* handleReaccess on a subscription that is loaded and sent, with nothing waiting for a verdict *)
Lemma v_hreacc k more sn0 fl0 : gone_ i k = false -> loaded_ i k = true -> sent_ i k = true ->
  g_V i more true sn0 fl0 (tx k) (ty k) -> Core.acb (ty k) = [] ->
  let k' := handle_reaccess c i k in
  TV i false k' /\ flag_ i k' = true /\ loaded_ i k' = true /\ sent_ i k' = true /\ Core.rq (ty k') = true /\ tx k' = tx k.
Proof.
  intros Hg Hl Hs HV Ha. cbn zeta.
  destruct (hreacc_eq k) as (E1&E2&E3); [pose proof (g_v_dir _ _ _ _ _ _ _ HV); lia|].
  destruct (startq_sub (ts k) i) as (A&B&_&_&D). unfold TV. k_unfold. rewrite E1, E2, E3, gone_step, A, B, D, Hl, Hs. flds.
  splits; auto. rewrite Ha. exact (V_asked i more sn0 fl0 (tx k) (ty k) _ (Core.lost (ty k)) HV).
Qed.

Lemma v_reacc k : TV i false k ->
  let k' := reaccess c i k in
  TV i false k' /\ flag_ i k' = true /\ (Core.rq (ty k') = true \/ Core.reflag (ty k') = true) /\ tx k' = tx k.
Proof.
  intros [Hg HV]. cbn zeta. unfold Core.reaccess. rewrite Hg. destruct (flag_ i k) eqn:Ef.
  - unfold TV. k_unfold. rewrite Ef. splits; auto. apply V_remember, HV.
  - destruct (g_v_cp _ _ _ _ _ _ _ HV eq_refl) as [Hl Hs].
    pose proof (V_idle _ _ _ _ _ _ _ HV (g_v_nfl _ _ _ _ _ _ _ HV eq_refl)) as Ha.
    rewrite Hl in HV. destruct (v_hreacc k false _ _ Hg Hl Hs HV Ha) as (A&B&_&_&C&D). auto.
Qed.

Lemma v_respond k ids more : gone_ i k = false -> loaded_ i k = true ->
  g_V i more true (sent_ i k) (flag_ i k) (tx k) (ty k) -> (sent_ i k = false -> Core.acc (ty k) <> None) -> ids <> [] ->
  let k' := respond c i k ids in
  TV i false k' /\ loaded_ i k' = true /\ sent_ i k' = true.
Proof.
  intros Hg Hl HV Hacc Hids. cbn zeta. unfold Core.respond. destruct ids as [|id r]; [contradiction|].
  destruct (sent_ i k) eqn:Es.
  - unfold TV. k_unfold. rewrite Hl, Es. splits; auto. eapply V_done, HV.
  - k_unfold. specialize (Hacc eq_refl).
    pose proof (V_idle _ _ _ _ _ _ _ HV Hacc) as Ha.
    destruct (Core.reflag (ty k)) eqn:Er.
    + set (k1 := actk (emit k [Core.OResp val upd c id (Some (Conv.sval val upd (me i k)))]) (Conv.Respond upd i 0)).
      destruct (respond_none_sub (ts k) i Hl Es) as (C&B&_).
      assert (Hg1 : gone_ i k1 = false) by (unfold k1; k_unfold; rewrite gone_step; exact Hg).
      destruct (v_hreacc k1 more false (flag_ i k) Hg1 B C HV Ha) as (P&Q&R&S&T&U).
      unfold TV in *. k_unfold. splits; try tauto.
    + destruct (respond_all_sub (ts k) i Hl Es) as (C&B&D&_).
      unfold TV. k_unfold. rewrite gone_step, B, C, D. splits; auto. eapply V_respond; eauto.
Qed.

Lemma v_ready k id more : TV i more k ->
  Core.acc (ty k) = Some true \/ (loaded_ i k = true /\ sent_ i k = true) ->
  let k' := on_ready c i k id in
  TV i false k' /\ (Core.acc (ty k') = Some true \/ (loaded_ i k' = true /\ sent_ i k' = true)).
Proof.
  intros [Hg HV] Hor. cbn zeta. unfold Core.on_ready. destruct (loaded_ i k) eqn:El.
  - destruct (v_respond k [id] more Hg El HV) as (A&B&C); [|discriminate|auto].
    intros Es. destruct Hor as [E|[_ E]]; congruence.
  - assert (Ha : Core.acc (ty k) = Some true) by (destruct Hor as [E|[E _]]; [exact E|discriminate E]).
    unfold TV. k_unfold. rewrite El. splits; auto. apply V_wait with (more := more); assumption.
Qed.

Lemma v_reqs : forall r k, ~ In g_AVal r -> TV i true k ->
  Core.acc (ty k) = Some true \/ (loaded_ i k = true /\ sent_ i k = true) ->
  (r = [] -> TV i false k) -> TV i false (fold_left (run_cb c i true) r k).
Proof.
  induction r as [|b r IH]; intros k Hn HT Hor H0; cbn [fold_left].
  - apply H0; reflexivity.
  - destruct b as [id|]; [|exfalso; apply Hn; left; reflexivity].
    cbn [Core.run_cb]. destruct HT as [Hg HV]. rewrite Hg.
    destruct (v_ready k id true (conj Hg HV) Hor) as (A&C).
    apply IH; auto.
    + intros Hin. apply Hn. right. exact Hin.
    + destruct A as [A1 A2]. split; [exact A1|apply V_more, A2].
Qed.

(* the validation, first in line, is answered with a grant *)
Lemma v_val k : TV i false k -> In g_AVal (Core.acb (ty k)) ->
  let y := ty k in
  let k' := unqueue_reaccess c i (sety k (Core.upd_y y [] (Core.rcb y) (Some true) false None (Core.reflag y) (Core.rq y) (Core.lost y))) in
  TV i false k' /\ (Core.acc (ty k') = Some true \/ (loaded_ i k' = true /\ sent_ i k' = true)).
Proof.
  intros [Hg HV] Hin. cbn zeta.
  destruct (g_v_rq _ _ _ _ _ _ _ HV (g_v_aval _ _ _ _ _ _ _ HV Hin)) as (Hf&Hl&Hs&_).
  unfold Core.unqueue_reaccess. k_unfold. flds. rewrite Hg. destruct (Core.reflag (ty k)) eqn:Er.
  - match goal with |- context [handle_reaccess c i ?k0] => destruct (hreacc_eq k0) as (E1&E2&E3); [k_unfold; pose proof (g_v_dir _ _ _ _ _ _ _ HV); lia|] end.
    destruct (startq_sub (ts k) i) as (A&B&_&_&D). unfold TV. k_unfold. rewrite E1, E2, E3. k_unfold. flds. rewrite gone_step, A, B, D, Hl, Hs.
    splits; auto. rewrite Hl in HV. exact (V_asked i _ _ _ (tx k) (ty k) None (Core.lost (ty k)) HV).
  - destruct (unqueue_all_sub (ts k) i Hl Hs Hf) as (C&B&D&_).
    unfold TV. k_unfold. rewrite gone_step, B, C, D. splits; auto.
    pose proof (V_val_ok i _ _ _ (tx k) (ty k) (Core.lost (ty k)) HV Hin Er) as X. rewrite Er in X. exact X.
Qed.

Definition iserr (o : out_) : Prop := exists id e, o = Core.OErr val upd c id e.

Lemma denied_gone b k : TD i k ->
  TD i (run_cb c i false k b) /\ exists o, to (run_cb c i false k b) = to k ++ o /\ Forall iserr o.
Proof.
  intros (Hg&Hc&Hd&Hr&Ha). destruct b as [id|]; cbn [Core.run_cb].
  - unfold Core.remove_direct. k_unfold. rewrite Hd. cbn [Nat.eqb]. split; [split; k_unfold; auto|].
    exists [Core.OErr val upd c id Core.EDenied]. split; [reflexivity|]. constructor; [exists id, Core.EDenied; reflexivity|constructor].
  - unfold Core.unsubscribe_direct. rewrite Hd. cbn [Nat.ltb Nat.leb]. unfold Core.unqueue_reaccess. k_unfold. rewrite Hg.
    split; [split; k_unfold; flds; auto|]. exists []. rewrite app_nil_r. split; [reflexivity|constructor].
Qed.
Lemma denied_gone_l : forall r k, TD i k ->
  TD i (fold_left (run_cb c i false) r k) /\ exists o, to (fold_left (run_cb c i false) r k) = to k ++ o /\ Forall iserr o.
Proof.
  induction r as [|b r IH]; intros k H; cbn [fold_left].
  - split; [exact H|]. exists []. rewrite app_nil_r. split; [reflexivity|constructor].
  - destruct (denied_gone b k H) as [A (o1&B1&C1)]. destruct (IH _ A) as [A' (o2&B2&C2)].
    split; [exact A'|]. exists (o1 ++ o2). rewrite B2, B1, app_assoc. split; [reflexivity|apply Forall_app; auto].
Qed.
(* the validation is denied: every direct subscription is revoked with one unsubscribe event *)
Lemma denied_val k : gone_ i k = false -> 0 < Core.direct (tx k) -> Core.acb (ty k) = [] ->
  let k' := run_cb c i false k g_AVal in
  TD i k' /\ to k' = to k ++ [Core.OUnsubEv val upd c].
Proof.
  intros Hg Hd Ha. cbn zeta. cbn [Core.run_cb]. unfold Core.unsubscribe_direct.
  destruct (Nat.ltb_spec 0 (Core.direct (tx k))) as [_|E]; [|lia].
  destruct (v_remove_all k (Core.direct (tx k)) Hg Hd) as [(A&B&C&R&A') D]; [lia|exact Ha|].
  unfold Core.unqueue_reaccess. k_unfold. rewrite A. k_unfold. rewrite D. split; [|reflexivity]. unfold TD. k_unfold. flds. auto.
Qed.
Lemma denied_val_l l r k : l = g_AVal :: r -> gone_ i k = false -> 0 < Core.direct (tx k) -> Core.acb (ty k) = [] ->
  let k' := fold_left (run_cb c i false) l k in
  TD i k' /\ exists o, to k' = to k ++ Core.OUnsubEv val upd c :: o /\ Forall iserr o.
Proof.
  intros -> Hg Hd Ha. cbv zeta. cbn [fold_left]. destruct (denied_val k Hg Hd Ha) as [D1 O1]. destruct (denied_gone_l r _ D1) as [D2 (o&O2&E2)].
  split; [exact D2|]. exists o. rewrite O2, O1, <- app_assoc. auto.
Qed.
Lemma denied_reqs : forall r k, ~ In g_AVal r -> gone_ i k = false -> 0 < Core.direct (tx k) -> Core.direct (tx k) <= g_nreq r ->
  Core.acb (ty k) = [] -> TD i (fold_left (run_cb c i false) r k).
Proof.
  induction r as [|b r IH]; intros k Hn Hg Hd Hle Ha; [cbn in Hle; lia|].
  destruct b as [id|]; [|exfalso; apply Hn; left; reflexivity]. cbn [fold_left Core.run_cb].
  destruct (Nat.eq_dec (Core.direct (tx k) - 1) 0) as [E|E].
  - apply denied_gone_l. apply v_remove_all; k_unfold; auto.
  - rewrite remove_some by (k_unfold; exact E). apply IH.
    + intros Hin. apply Hn. right. exact Hin.
    + k_unfold. exact Hg.
    + k_unfold. flds. lia.
    + k_unfold. flds. cbn [Core.ids_of flat_map List.app length] in Hle. change (flat_map _ r) with (Core.ids_of r) in Hle. lia.
    + exact Ha.
Qed.
End HandlersV.

Definition g_qok (s : st_) (c : nat) (it : Core.qitem) : Prop :=
  match it with
  | Core.QAccess j | Core.QSub j => j < next s /\ Core.owner (insts s j) = c
  | _ => True
  end.

Record g_I (s : st_) : Prop := {
  g_i_inv : CInv (cv s);
  g_i_fresh : forall j, next s <= j -> insts s j = Core.inst0 /\ csubs (cv s) j = Conv.sub0 val upd d;
  g_i_cur : forall c j, Core.cur (conns s c) = Some j ->
     j < next s /\ Core.owner (insts s j) = c /\ sgone (csubs (cv s) j) = false;
  g_i_dir0 : forall c, Core.cur (conns s c) = None -> Core.direct (conns s c) = 0;
  g_i_live : forall j, j < next s -> sgone (csubs (cv s) j) = false ->
     g_V j false (sloaded (csubs (cv s) j)) (ssent (csubs (cv s) j)) (sflag (csubs (cv s) j))
         (conns s (Core.owner (insts s j))) (insts s j);
  g_i_q : forall c it, In it (Core.cqueue (conns s c)) -> g_qok s c it;
  g_i_nop : forall n, In (Conv.INop val upd n) (cqe (cv s)) -> n < next s;
  g_i_dead : forall j, j < next s -> sgone (csubs (cv s) j) = true -> Core.rcb (insts s j) = [] /\ Core.acb (insts s j) = [] }.

(* whatever the instance: a continuation waits for a verdict only while an access request is out, and for the resource only
   on a live subscription that is not loaded yet *)
Lemma I_acb s j : g_I s -> Core.acb (insts s j) <> [] -> Core.inflight (insts s j) = true.
Proof.
  intros HI Ha. destruct (Nat.lt_ge_cases j (next s)) as [Hj|Hj]; [|destruct (g_i_fresh _ HI j Hj) as [E _]; rewrite E in Ha; destruct Ha; reflexivity].
  destruct (sgone (csubs (cv s) j)) eqn:Eg; [destruct (g_i_dead _ HI j Hj Eg) as [_ E]; contradiction|].
  apply (g_v_acb _ _ _ _ _ _ _ (g_i_live _ HI j Hj Eg) Ha).
Qed.
Lemma I_rcb s j : g_I s -> Core.rcb (insts s j) <> [] -> sgone (csubs (cv s) j) = false /\ sloaded (csubs (cv s) j) = false.
Proof.
  intros HI Hr. destruct (Nat.lt_ge_cases j (next s)) as [Hj|Hj]; [|destruct (g_i_fresh _ HI j Hj) as [E _]; rewrite E in Hr; destruct Hr; reflexivity].
  destruct (sgone (csubs (cv s) j)) eqn:Eg; [destruct (g_i_dead _ HI j Hj Eg) as [E _]; contradiction|].
  split; [reflexivity|]. apply (g_v_rcbn _ _ _ _ _ _ _ (g_i_live _ HI j Hj Eg) Hr).
Qed.

(* [quiet]: the actions of the service and of the cache worker; [calm]: what they leave alone in every subscriber *)
Definition quiet (a : act_) : Prop :=
  match a with Conv.SvcUpdate _ _ | Conv.SvcCustom _ | Conv.SvcAnswer _ | Conv.SvcReacc _ | Conv.RunE _ => True | _ => False end.
Definition calm (σ σ' : cst) : Prop :=
  CInv σ' /\
  (forall j, sgone (csubs σ' j) = sgone (csubs σ j) /\ sloaded (csubs σ' j) = sloaded (csubs σ j) /\
             ssent (csubs σ' j) = ssent (csubs σ j) /\ sflag (csubs σ' j) = sflag (csubs σ j)) /\
  (forall j, ssubscribed (csubs σ j) = false -> csubs σ' j = csubs σ j) /\
  (forall n, In (Conv.INop val upd n) (cqe σ') -> In (Conv.INop val upd n) (cqe σ)).

Lemma calm_step σ a : quiet a -> CInv σ -> calm σ (cstep σ a).
Proof.
  intros Ha H. split; [apply cstep_inv, H|].
  assert (Hn : forall n, In (Conv.INop val upd n) (cqe (cstep σ a)) -> In (Conv.INop val upd n) (cqe σ)).
  { intros n Hin. apply (nop_steps [a]) in Hin. destruct Hin as [Hin|[->|[]]]; [exact Hin|destruct Ha]. }
  destruct a; try contradiction; (split; [|split; [|exact Hn]]);
    try (intros j; rewrite subs_other by (cbn [tgt]; congruence); repeat split).
  - intros j. destruct (rune_sub σ j) as [->|(it & -> & _)]; repeat split.
  - intros j Hs. apply rune_fresh; assumption.
Qed.
Lemma calm_steps acts : Forall quiet acts -> forall σ, CInv σ -> calm σ (fold_left cstep acts σ).
Proof.
  induction 1 as [|a acts Ha _ IH]; intros σ H; cbn [fold_left].
  - split; [exact H|]. repeat split; auto.
  - destruct (calm_step σ a Ha H) as (A1&B1&C1&D1). destruct (IH _ A1) as (A2&B2&C2&D2). split; [exact A2|]. split; [|split].
    + intros j. destruct (B1 j) as (a1&b1&c1&e1). destruct (B2 j) as (a2&b2&c2&e2). repeat split; congruence.
    + intros j Hs. rewrite C2; [apply C1, Hs|rewrite C1; assumption].
    + auto.
Qed.

Definition conn_ok (s : st_) (c : nat) (x' : conn) : Prop :=
  cur x' = cur (conns s c) /\ direct x' = direct (conns s c) /\
  forall it, In it (cqueue x') -> In it (cqueue (conns s c)) \/ g_qok s c it.
Lemma conn_ok_refl s c : conn_ok s c (conns s c).
Proof. repeat split. auto. Qed.
Lemma conn_ok_set s c x' : conn_ok s c x' -> forall c', conn_ok s c' (Core.set_conn (conns s) c x' c').
Proof.
  intros H c'. destruct (Nat.eq_dec c' c) as [->|Hne]; [rewrite set_conn_eq; exact H|rewrite set_conn_neq by exact Hne; apply conn_ok_refl].
Qed.
Lemma conn_ok_snoc s c x' it : cur x' = cur (conns s c) -> direct x' = direct (conns s c) ->
  cqueue x' = cqueue (conns s c) ++ [it] -> g_qok s c it -> conn_ok s c x'.
Proof.
  intros A B C D. split; [exact A|]. split; [exact B|]. intros it' Hin. rewrite C in Hin. apply in_snoc in Hin.
  destruct Hin as [Hin| ->]; auto.
Qed.

Lemma I_quiet s acts f' ms gr : g_I s -> Forall quiet acts -> (forall c, conn_ok s c (f' c)) ->
  g_I {| Core.cv := fold_left cstep acts (cv s); Core.conns := f'; Core.insts := insts s; Core.next := next s;
         Core.mqsub := ms; Core.getreq := gr |}.
Proof.
  intros HI Ha Hf. pose proof HI as [I1 I2 I3 I4 I5 I6 I7 I8]. destruct (calm_steps acts Ha (cv s) I1) as (Hinv&Hfl&Hfr&Hnop).
  constructor; cbn [Core.cv Core.conns Core.insts Core.next].
  - exact Hinv.
  - intros j Hj. destruct (I2 j Hj) as [A B]. split; [exact A|]. rewrite Hfr; [exact B|rewrite B; reflexivity].
  - intros c j Hc. destruct (Hf c) as (A&_). rewrite A in Hc. destruct (Hfl j) as (G&_). rewrite G. apply I3, Hc.
  - intros c Hc. destruct (Hf c) as (A&B&_). rewrite A in Hc. rewrite B. apply I4, Hc.
  - intros j Hj Hg. destruct (Hfl j) as (G&L&S&F). rewrite G in Hg. rewrite L, S, F.
    destruct (Hf (owner (insts s j))) as (A&B&_). eapply V_x; [apply I5; assumption|exact A|exact B].
  - intros c it Hin. destruct (Hf c) as (_&_&Q). destruct (Q it Hin) as [H|H]; [apply I6, H|exact H].
  - intros n Hin. apply I7, Hnop, Hin.
  - intros j Hj Hg. destruct (Hfl j) as (G&_). rewrite G in Hg. apply I8; assumption.
Qed.

(* where a task of connection c that worked on its instance i leaves them: the instance live and in order, or given up by this
   task, or given up before (its record of the connection is then as it was) *)
Definition after_task (s : st_) (c i : nat) (k : tk_) : Prop :=
  TV i false k \/ (TD i k /\ cur (conns s c) = Some i) \/
  (sgone (csubs (cv s) i) = true /\ cur (tx k) = cur (conns s c) /\ direct (tx k) = direct (conns s c) /\ ty k = insts s i).

(* What a grant of connection c may do to the invariant.  The instances in P are the ones the task touched: they belong to c
   (or are new) and are shown in order, or given up, against the connection's new record x'.  Every other instance keeps its
   subscriber and its record, and the instance c holds is either touched or held as before, with the same count. *)
Lemma I_task s c (P : nat -> Prop) σ' x' insts' nx ms gr : g_I s -> (forall j, P j \/ ~ P j) -> CInv σ' -> next s <= nx ->
  (forall n, In (Conv.INop val upd n) (cqe σ') -> In (Conv.INop val upd n) (cqe (cv s))) ->
  (forall j, ~ P j -> csubs σ' j = csubs (cv s) j /\ insts' j = insts s j /\ (next s <= j -> nx <= j)) ->
  (forall j, P j -> j < nx /\ owner (insts' j) = c /\ (j < next s -> owner (insts s j) = c) /\
     (sgone (csubs σ' j) = true -> rcb (insts' j) = [] /\ acb (insts' j) = []) /\
     (sgone (csubs σ' j) = false -> g_V j false (sloaded (csubs σ' j)) (ssent (csubs σ' j)) (sflag (csubs σ' j)) x' (insts' j))) ->
  cqueue x' = tl (cqueue (conns s c)) ->
  (cur x' = None -> direct x' = 0) ->
  (forall j, cur x' = Some j -> P j /\ sgone (csubs σ' j) = false \/ ~ P j /\ cur (conns s c) = Some j /\ direct x' = direct (conns s c)) ->
  (forall j, ~ P j -> cur (conns s c) = Some j -> cur x' = Some j) ->
  g_I {| Core.cv := σ'; Core.conns := Core.set_conn (conns s) c x'; Core.insts := insts'; Core.next := nx; Core.mqsub := ms; Core.getreq := gr |}.
Proof.
  intros HI Hdec Hinv Hnx Hnop Hsame Htch Hq Hd0 Hcur Hkeep. pose proof HI as [I1 I2 I3 I4 I5 I6 I7 I8].
  assert (Hold : forall j, ~ P j -> j < nx -> j < next s).
  { intros j Nj Hj. destruct (Nat.lt_ge_cases j (next s)) as [H|H]; [exact H|]. apply (Hsame j Nj) in H. lia. }
  assert (Hown : forall j, j < next s -> owner (insts' j) = owner (insts s j)).
  { intros j Hj. destruct (Hdec j) as [Pj|Nj]; [destruct (Htch j Pj) as (_&A&B&_); rewrite A, B; auto|].
    destruct (Hsame j Nj) as (_&E&_). rewrite E. reflexivity. }
  assert (Hoth : forall j, j < next s -> owner (insts s j) <> c -> ~ P j).
  { intros j Hj Ho Pj. destruct (Htch j Pj) as (_&_&B&_). auto. }
  constructor; cbn [Core.cv Core.conns Core.insts Core.next].
  - exact Hinv.
  - intros j Hj. destruct (Hdec j) as [Pj|Nj]; [destruct (Htch j Pj) as (A&_); lia|].
    destruct (Hsame j Nj) as (A&B&_). rewrite A, B. apply I2. lia.
  - intros c' j Hc. assert (X : ~ P j /\ cur (conns s c') = Some j \/ c' = c /\ P j /\ sgone (csubs σ' j) = false).
    { destruct (Nat.eq_dec c' c) as [->|Hne].
      - rewrite set_conn_eq in Hc. destruct (Hcur j Hc) as [[Pj G]|(Nj&E&_)]; auto.
      - rewrite set_conn_neq in Hc by exact Hne. left. split; [|exact Hc]. destruct (I3 c' j Hc) as (A&B&_). apply Hoth; congruence. }
    destruct X as [[Nj E]|(->&Pj&G)].
    + destruct (I3 c' j E) as (A&B&C). destruct (Hsame j Nj) as (E1&E2&_). rewrite E1, E2. repeat split; [lia|exact B|exact C].
    + destruct (Htch j Pj) as (A&B&_). auto.
  - intros c' Hc. destruct (Nat.eq_dec c' c) as [->|Hne]; [rewrite set_conn_eq in *; apply Hd0, Hc|rewrite set_conn_neq in * by exact Hne; apply I4, Hc].
  - intros j Hj Hg. destruct (Hdec j) as [Pj|Nj].
    + destruct (Htch j Pj) as (_&A&_&_&V). rewrite A, set_conn_eq. apply V, Hg.
    + destruct (Hsame j Nj) as (E1&E2&_). rewrite E1 in *. rewrite E2. pose proof (I5 j (Hold j Nj Hj) Hg) as HV.
      destruct (Nat.eq_dec (owner (insts s j)) c) as [E|E]; [|rewrite set_conn_neq by exact E; exact HV].
      rewrite E in *. rewrite set_conn_eq. pose proof (Hkeep j Nj (g_v_cur _ _ _ _ _ _ _ HV)) as Y.
      destruct (Hcur j Y) as [[Pj _]|(_&X&D)]; [contradiction|]. eapply V_x; [exact HV|congruence|exact D].
  - intros c' it Hin. assert (Hin' : In it (cqueue (conns s c'))).
    { destruct (Nat.eq_dec c' c) as [->|Hne]; [|rewrite set_conn_neq in Hin by exact Hne; exact Hin].
      rewrite set_conn_eq, Hq in Hin. destruct (cqueue (conns s c)); [destruct Hin|right; exact Hin]. }
    apply I6 in Hin'. destruct it; cbn [g_qok Core.next Core.insts] in *; auto; (destruct Hin' as [A B]; split; [lia|rewrite Hown by exact A; exact B]).
  - intros n Hin. apply Hnop, I7 in Hin. lia.
  - intros j Hj Hg. destruct (Hdec j) as [Pj|Nj]; [apply (Htch j Pj), Hg|].
    destruct (Hsame j Nj) as (E1&E2&_). rewrite E1 in Hg. rewrite E2. apply I8; [exact (Hold j Nj Hj)|exact Hg].
Qed.

(* the task k is what a handler made of k1, which started from the head item [it] of the connection's queue *)
Lemma lift s c i k1 k it ms gr : g_I s -> i < next s -> owner (insts s i) = c ->
  sync (cv s) k1 -> Forall (tact (Some i)) (ta k1) -> ty k1 = insts s i -> cqueue (conns s c) = it :: cqueue (tx k1) ->
  ext false c i k1 k -> after_task s c i k ->
  g_I {| Core.cv := ts k; Core.conns := Core.set_conn (conns s) c (tx k); Core.insts := Core.set_inst (insts s) i (ty k);
         Core.next := next s; Core.mqsub := ms; Core.getreq := gr |}.
Proof.
  intros HI Hi Ho Hsy1 Ha1 Hy Hq1 He Hloc. pose proof (sync_ext _ _ _ _ _ _ Hsy1 He) as Hsy.
  assert (Ha : Forall (tact (Some i)) (ta k)).
  { destruct He as [(l&A&_&C) _ _ _ _ _ _ _]. rewrite A. apply Forall_app. split; [exact Ha1|]. eapply Forall_impl; [|exact C]. apply hact_tact. }
  assert (Hoy : owner (ty k) = c) by (rewrite (e_own _ _ _ _ _ He), Hy; exact Ho).
  assert (Hq : cqueue (tx k) = tl (cqueue (conns s c))) by (rewrite (e_q _ _ _ _ _ He), Hq1; reflexivity).
  clear Hsy1 Ha1 Hy Hq1 He it. pose proof HI as [I1 I2 I3 I4 I5 I6 I7 I8]. unfold sync in Hsy.
  destruct (tact_frame i (ta k) (cv s) Ha) as (Hfr&Hnop&_). rewrite <- Hsy in Hfr, Hnop.
  assert (Hgm : sgone (csubs (cv s) i) = true -> gone_ i k = true).
  { intros G. unfold Core.gone_, Core.me. rewrite Hsy. apply gone_kept, G. }
  assert (Hwas : gone_ i k = false -> cur (conns s c) = Some i).
  { intros Hg. destruct (sgone (csubs (cv s) i)) eqn:E; [rewrite (Hgm eq_refl) in Hg; discriminate Hg|].
    pose proof (g_v_cur _ _ _ _ _ _ _ (I5 i Hi E)) as X. rewrite Ho in X. exact X. }
  (* the third alternative as the clauses of g_I need it: given up before, i is not the instance c holds, and nothing waits on it *)
  assert (Hloc' : TV i false k \/ (TD i k /\ cur (conns s c) = Some i) \/
            (gone_ i k = true /\ cur (tx k) = cur (conns s c) /\ direct (tx k) = direct (conns s c) /\ cur (conns s c) <> Some i)).
  { destruct Hloc as [H|[H|(G&A&B&_)]]; auto. right. right. repeat split; auto.
    intros Ec. destruct (I3 c i Ec) as (_&_&X). congruence. }
  assert (Hdead : gone_ i k = true -> rcb (ty k) = [] /\ acb (ty k) = []).
  { intros G. destruct Hloc as [[H _]|[((_&_&_&H)&_)|(G0&_&_&E)]]; [congruence|exact H|rewrite E; apply I8; assumption]. }
  clear Hloc. unfold TV, TD, Core.gone_, Core.loaded_, Core.sent_, Core.flag_, Core.me in *.
  apply (I_task s c (fun j => j = i)).
  - exact HI.
  - intros j. destruct (Nat.eq_dec j i); auto.
  - rewrite Hsy. apply acts_inv, I1.
  - apply le_n.
  - exact Hnop.
  - intros j Hne. split; [apply Hfr, Hne|]. split; [apply set_inst_neq, Hne|auto].
  - intros j ->. rewrite set_inst_eq. split; [exact Hi|]. split; [exact Hoy|]. split; [auto|]. split; [exact Hdead|].
    intros G. destruct Hloc' as [[_ HV]|[((G'&_)&_)|(G'&_)]]; [exact HV|congruence|congruence].
  - exact Hq.
  - intros Hc. destruct Hloc' as [[_ HV]|[((_&_&Hd&_)&_)|(_&Hcu&Hd&_)]]; [pose proof (g_v_cur _ _ _ _ _ _ _ HV); congruence|exact Hd|].
    rewrite Hd. apply I4. congruence.
  - intros j Hc. destruct Hloc' as [[Hg HV]|[((_&Hn&_)&_)|(_&Hcu&Hd&Hni)]].
    + left. pose proof (g_v_cur _ _ _ _ _ _ _ HV) as X. rewrite Hc in X. injection X as ->. auto.
    + congruence.
    + right. rewrite Hcu in Hc. split; [congruence|auto].
  - intros j Hne Hc. destruct Hloc' as [[Hg _]|[(_&Hc')|(_&Hcu&_)]]; [apply Hwas in Hg| |]; congruence.
Qed.

Lemma I_cur s c i : g_I s -> cur (conns s c) = Some i ->
  i < next s /\ owner (insts s i) = c /\ sgone (csubs (cv s) i) = false /\
  g_V i false (sloaded (csubs (cv s) i)) (ssent (csubs (cv s) i)) (sflag (csubs (cv s) i)) (conns s c) (insts s i).
Proof.
  intros HI Hc. destruct (g_i_cur _ HI c i Hc) as (A&B&C). pose proof (g_i_live _ HI i A C) as HV. rewrite B in HV.
  split; [exact A|]. split; [exact B|]. split; [exact C|exact HV].
Qed.

Section BodiesV.
Variables (s : st_) (c : nat) (x : conn) (q : list qitem) (i : nat).
Hypotheses (Hg : sgone (csubs (cv s) i) = false)
  (HV : g_V i false (sloaded (csubs (cv s) i)) (ssent (csubs (cv s) i)) (sflag (csubs (cv s) i)) x (insts s i)).

Lemma v_start x' : cur x' = cur x -> direct x' = direct x -> TV i false (K0 s x' (insts s i)).
Proof. intros E1 E2. split; [exact Hg|]. eapply V_x; eauto. Qed.

Lemma v_body_token t : TV i false (if tokset x then reaccess c i (K0 s (xtok x q t) (insts s i)) else K0 s (xtok x q t) (insts s i)).
Proof. destruct (tokset x); [apply v_reacc|]; apply v_start; reflexivity. Qed.

Lemma v_body_req id : TV i false (body_req s c x id q i).
Proof.
  unfold body_req. cbv zeta. pose proof (g_v_cur _ _ _ _ _ _ _ HV) as Ec. destruct (acc (insts s i)) as [[|]|] eqn:Ea.
  - apply (v_ready c i _ id false); [|left; exact Ea]. split; [exact Hg|].
    eapply V_conn; [exact HV|exact (eq_sym Ec)|cbn; lia|cbn [Core.ty]; congruence].
  - destruct (g_v_accf _ _ _ _ _ _ _ HV Ea).
  - match goal with |- TV _ _ (load_access _ _ ?K ?B) => destruct (load_access_eq c i K B) as (E1&E2&E3) end.
    unfold TV, Core.gone_, Core.loaded_, Core.sent_, Core.flag_, Core.me.
    rewrite E1, E2, E3. split; [exact Hg|]. apply (V_join i _ _ _ x); auto.
Qed.

Lemma v_body_unsub id cnt : let k := body_unsub s c x id cnt q i in TV i false k \/ TD i k.
Proof.
  cbv zeta. unfold body_unsub. cbv zeta. pose proof (v_start (Core.with_q x q) eq_refl eq_refl) as HT.
  pose proof (g_v_dir _ _ _ _ _ _ _ HV) as Hd.
  destruct (Nat.eqb cnt 0); [left; exact HT|]. destruct (Nat.leb cnt (direct x)); [|left; exact HT].
  destruct (Nat.eqb_spec (direct x - cnt) 0) as [Ez|Ez].
  - right. apply v_remove_all; [exact Hg|exact Hd|exact Ez|reflexivity].
  - left. rewrite remove_some by exact Ez. split; [exact Hg|]. eapply V_conn; [exact HV|reflexivity|cbn; lia|intros _; cbn; lia].
Qed.

Lemma v_body_access : let k := body_access s c x q i in TV i false k \/ TD i k.
Proof.
  cbv zeta. unfold body_access. cbv zeta. pose proof (v_start (Core.with_q x q) eq_refl eq_refl) as HT.
  set (k1 := K0 s (Core.with_q x q) (insts s i)) in *.
  destruct (ans (insts s i)) as [g|] eqn:Ea; [|left; exact HT].
  assert (Hinf : inflight (insts s i) = true) by (apply (g_v_ans _ _ _ _ _ _ _ HV); congruence).
  pose proof (g_v_infl _ _ _ _ _ _ _ HV Hinf) as Hne. pose proof (g_v_dir _ _ _ _ _ _ _ HV) as Hd.
  destruct (acb_cases _ (g_v_tl _ _ _ _ _ _ _ HV)) as [(r&Er&Hr)|Hnin]; destruct g.
  - left. rewrite Er. cbn [fold_left Core.run_cb].
    destruct (v_val c i k1 HT) as (A&C); [unfold k1; cbn [Core.ty]; rewrite Er; left; reflexivity|].
    unfold k1 in A, C. cbn [Core.ty] in A, C. apply v_reqs; auto. destruct A as [A1 A2]. split; [exact A1|apply V_more, A2].
  - right. apply (denied_val_l c i _ r); [exact Er|exact Hg|exact Hd|reflexivity].
  - left. apply v_reqs; auto.
    + split; [exact Hg|]. apply V_granted; [eapply V_x; eauto|exact Hnin].
    + intros E. contradiction.
  - right. apply denied_reqs; [exact Hnin|exact Hg|exact Hd| |reflexivity].
    destruct (g_v_acb _ _ _ _ _ _ _ HV Hne) as [_ Hacc]. destruct (g_v_cnt _ _ _ _ _ _ _ HV Hacc); [contradiction|assumption].
Qed.

Lemma v_body_sub : CInv (cv s) -> TV i false (body_sub s c x q i).
Proof.
  intros Hinv. unfold body_sub. cbv zeta. set (k1 := actk (K0 s (Core.with_q x q) (insts s i)) (Conv.RunC upd i)).
  assert (Hg1 : gone_ i k1 = false) by (unfold k1; rewrite gone_act; exact Hg).
  assert (HV0 : g_V i false (sloaded (csubs (cv s) i)) (ssent (csubs (cv s) i)) (sflag (csubs (cv s) i)) (tx k1) (ty k1)) by (eapply V_x; eauto).
  assert (HT : forall k, gone_ i k = false -> g_V i false (loaded_ i k) (sent_ i k) (flag_ i k) (tx k) (ty k) -> TV i false k) by (intros k A B; split; assumption).
  unfold Core.loaded_, Core.sent_, Core.flag_, Core.me in HT.
  destruct (scq (csubs (cv s) i)) as [|[|e|] r] eqn:Ecq.
  - apply HT; [exact Hg1|]. unfold k1. cbn [Core.act Core.ts]. rewrite (runc_nil _ _ Ecq). exact HV0.
  - rewrite Hg. destruct (runc_loaded_fields _ _ _ Ecq Hg) as (F1&F2&_&F3).
    rewrite (loaded_head _ _ _ Hinv Ecq) in HV0.
    destruct (rcb (ty k1)) as [|id0 r0] eqn:Er.
    + cbn [Core.respond]. apply HT; [exact Hg1|]. unfold k1 in *. cbn [Core.sety Core.act Core.ts Core.tx Core.ty] in *. rewrite F1, F2, F3. eapply V_loaded; eauto.
    + match goal with |- TV i false (respond c i ?K ?IDS) => destruct (v_respond c i K IDS true) as (A&_); [| | | | |exact A] end.
      * exact Hg1.
      * exact F1.
      * unfold Core.sent_, Core.flag_, Core.me, k1 in *. cbn [Core.sety Core.act Core.ts Core.tx Core.ty] in *. rewrite F2, F3. eapply V_loaded; eauto.
      * intros _. cbn [Core.sety Core.ty Core.upd_y acc]. apply (g_v_rcbn _ _ _ _ _ _ _ HV0). rewrite Er. discriminate.
      * discriminate.
  - destruct (runc_event_fields _ _ _ _ Ecq) as (F1&F2&Fa&Fb).
    assert (F3 : sflag (csubs (cstep (cv s) (Conv.RunC upd i)) i) = sflag (csubs (cv s) i)).
    { destruct (sloaded (csubs (cv s) i) && negb (sflag (csubs (cv s) i))) eqn:E; [|apply Fb; reflexivity].
      destruct (Fa eq_refl) as [-> _]. apply andb_prop in E. destruct E as [_ E]. destruct (sflag (csubs (cv s) i)); [discriminate E|reflexivity]. }
    apply HT; [exact Hg1|]. unfold k1. cbn [Core.emit Core.act Core.ts Core.tx Core.ty]. rewrite F1, F2, F3. exact HV0.
  - destruct (runc_reacc_fields _ _ _ Ecq) as (F1&F2&F3&_).
    apply v_reacc, HT; [exact Hg1|]. unfold k1. cbn [Core.act Core.ts Core.tx Core.ty]. rewrite F1, F2, F3. exact HV0.
Qed.
End BodiesV.

Lemma subscribe_fresh σ i : csubs σ i = Conv.sub0 val upd d ->
  let x := csubs (cstep σ (Conv.Subscribe upd i)) i in
  ssubscribed x = true /\ sloaded x = false /\ ssent x = false /\ sflag x = true.
Proof.
  intros E. cbn zeta. cbn [Conv.step]. rewrite E. cbn [Conv.sub0 Conv.subscribed Conv.subs]. rewrite Conv.set_sub_eq. cbn. auto.
Qed.

Lemma I_new s c id q ms gr : g_I s -> cqueue (conns s c) = QReq id :: q -> cur (conns s c) = None ->
  let y := ynew c in
  g_I {| Core.cv := cstep (cv s) (Conv.Subscribe upd (next s));
         Core.conns := Core.set_conn (conns s) c (Core.with_cd (Core.with_q (conns s c) q) (Some (next s)) 1);
         Core.insts := Core.set_inst (insts s) (next s)
                         (Core.upd_y y (acb y ++ [AReq id]) (rcb y) (acc y) true (ans y) (reflag y) (rq y) (lost y));
         Core.next := S (next s); Core.mqsub := ms; Core.getreq := gr |}.
Proof.
  intros HI Eq Ec. cbv zeta. destruct (g_i_fresh _ HI (next s) (le_n _)) as [_ Hz0].
  destruct (subscribe_fresh (cv s) (next s) Hz0) as (_&S3&S4&S5).
  assert (Hg : sgone (csubs (cstep (cv s) (Conv.Subscribe upd (next s))) (next s)) = false) by (rewrite gone_step, Hz0; reflexivity).
  apply (I_task s c (fun j => j = next s)).
  - exact HI.
  - intros j. destruct (Nat.eq_dec j (next s)); auto.
  - apply cstep_inv, (g_i_inv _ HI).
  - apply le_S, le_n.
  - intros n Hin. apply (nop_steps [_]) in Hin. destruct Hin as [Hin|[E|[]]]; [exact Hin|discriminate E].
  - intros j Hne. split; [apply subs_other; cbn [tgt]; congruence|]. split; [apply set_inst_neq, Hne|lia].
  - intros j ->. rewrite set_inst_eq, Hg, S3, S4, S5. split; [lia|]. split; [reflexivity|]. split; [lia|]. split; [discriminate|].
    intros _. apply (V_new (next s) (Core.with_q (conns s c) q) (ynew c) id []). reflexivity.
  - rewrite Eq. reflexivity.
  - discriminate.
  - intros j Hc. injection Hc as <-. left. split; [reflexivity|exact Hg].
  - intros j _ Hc. congruence.
Qed.

Lemma dispose_all l σ :
  let σ' := fold_left cstep (map (fun j => Conv.Dispose upd j true) l) σ in
  (forall j, ~ In j l -> csubs σ' j = csubs σ j) /\ (forall j, In j l -> sgone (csubs σ' j) = true) /\
  (forall n, In (Conv.INop val upd n) (cqe σ') -> In (Conv.INop val upd n) (cqe σ)).
Proof.
  cbn zeta. split; [|split].
  - intros j Hn. apply subs_others, Forall_forall. intros a Ha. apply in_map_iff in Ha. destruct Ha as (j'&<-&Hj'). cbn [tgt].
    split; [intros E; injection E as ->; exact (Hn Hj')|discriminate].
  - intros j Hin. apply in_split in Hin. destruct Hin as (l1&l2&->). rewrite map_app, fold_left_app. cbn [map fold_left].
    apply gone_kept. rewrite gone_step, Nat.eqb_refl. reflexivity.
  - intros n Hin. apply nop_steps in Hin. destruct Hin as [Hin|Hin]; [exact Hin|]. apply in_map_iff in Hin. destruct Hin as (j&E&_). discriminate E.
Qed.

Lemma I_dispose s c q ms gr : g_I s -> cqueue (conns s c) = QDispose :: q ->
  let k := body_dispose s c (conns s c) q in
  g_I {| Core.cv := ts k; Core.conns := Core.set_conn (conns s) c (tx k);
         Core.insts := match cur (conns s c) with Some i => Core.set_inst (insts s) i (ty k) | None => insts s end;
         Core.next := next s; Core.mqsub := ms; Core.getreq := gr |}.
Proof.
  intros HI Eq. cbv zeta. unfold body_dispose. cbv zeta.
  match goal with |- context [fold_left actk ?l ?k] => pose proof (sync_acts (cv s) l k eq_refl) as B; pose proof (acts_ta l k) as A; destruct (acts_frame l k) as (C&D&_) end.
  unfold sync in B. cbn [Core.ta Core.ts Core.tx Core.ty Core.to Core.emit Core.sety].
  rewrite B, A, C, D. cbn [Core.ta Core.tx Core.ty List.app].
  destruct (dispose_all (Core.insts_of val upd s c) (cv s)) as (D1&D2&D3). cbn zeta in *.
  match goal with |- g_I {| Core.cv := _; Core.conns := _; Core.insts := ?f; Core.next := _; Core.mqsub := _; Core.getreq := _ |} => set (insts' := f) end.
  assert (Hown : forall j, owner (insts' j) = owner (insts s j)).
  { intros j. unfold insts'. destruct (cur (conns s c)) as [i|]; [|reflexivity].
    destruct (Nat.eq_dec j i) as [->|Hne]; [rewrite set_inst_eq; reflexivity|rewrite set_inst_neq by exact Hne; reflexivity]. }
  apply (I_task s c (fun j => In j (Core.insts_of val upd s c))).
  - exact HI.
  - intros j. destruct (in_dec Nat.eq_dec j (Core.insts_of val upd s c)); auto.
  - apply acts_inv, (g_i_inv _ HI).
  - apply le_n.
  - exact D3.
  - intros j Hn. split; [apply D1, Hn|]. split; [|auto]. unfold insts'. destruct (cur (conns s c)) as [i|] eqn:Ec; [|reflexivity].
    destruct (g_i_cur _ HI c i Ec) as (Hi&Ho&_). apply set_inst_neq. intros ->. apply Hn, in_insts_of. auto.
  - intros j Hin. pose proof (D2 j Hin) as G. apply in_insts_of in Hin. destruct Hin as [Hj Ho].
    split; [exact Hj|]. split; [rewrite Hown; exact Ho|]. split; [auto|]. split; [intros _|congruence].
    (* an instance of c other than the one it holds was given up before *)
    assert (Hwas : cur (conns s c) <> Some j -> rcb (insts s j) = [] /\ acb (insts s j) = []).
    { intros Hc. apply (g_i_dead _ HI j Hj). destruct (sgone (csubs (cv s) j)) eqn:E; [reflexivity|].
      pose proof (g_v_cur _ _ _ _ _ _ _ (g_i_live _ HI j Hj E)) as X. rewrite Ho in X. contradiction. }
    unfold insts'. destruct (cur (conns s c)) as [i|] eqn:Ec; [|apply Hwas; discriminate].
    destruct (Nat.eq_dec j i) as [->|Hne]; [rewrite set_inst_eq; auto|]. rewrite set_inst_neq by exact Hne. apply Hwas. congruence.
  - rewrite Eq. reflexivity.
  - reflexivity.
  - discriminate.
  - intros j Hn Hc. destruct Hn. apply in_insts_of. destruct (g_i_cur _ HI c j Hc) as (Hj&Ho&_). auto.
Qed.

Lemma lift_K0 s c i x' it k ms gr : g_I s -> i < next s -> owner (insts s i) = c -> cqueue (conns s c) = it :: cqueue x' ->
  ext false c i (K0 s x' (insts s i)) k -> after_task s c i k ->
  g_I {| Core.cv := ts k; Core.conns := Core.set_conn (conns s) c (tx k); Core.insts := Core.set_inst (insts s) i (ty k);
         Core.next := next s; Core.mqsub := ms; Core.getreq := gr |}.
Proof. intros HI Hi Ho Hq He Hloc. apply (lift s c i (K0 s x' (insts s i)) k it); auto; [reflexivity|constructor]. Qed.

Lemma I_grant s c : g_I s -> g_I (fst (step s (Core.GrantConn upd c))).
Proof.
  intros HI. destruct (cqueue (conns s c)) as [|it0 q0] eqn:Eq0; [rewrite step_conn_empty by exact Eq0; exact HI|].
  rewrite step_conn by (rewrite Eq0; discriminate).
  destruct (ct_spec s c) as [Eq|id q Eq Ec|id q i Eq Ec|id cnt q i Eq Ec|id cnt q Eq Ec|t q i Eq Ec|t q Eq Ec|i q Eq Eg|i q Eq Eg|i q Eq|q Eq];
    cbn [fst].
  - congruence.
  - match goal with |- context [load_access c ?n ?K ?B] => destruct (load_access_eq c n K B) as (E1&E2&E3) end.
    rewrite E1, E2, E3. apply (I_new s c id q); assumption.
  - destruct (I_cur s c i HI Ec) as (Hi&Ho&Hg&HV).
    apply (lift_K0 s c i (Core.with_cd (Core.with_q (conns s c) q) (Some i) (S (direct (conns s c)))) (QReq id)); auto;
      [apply ext_body_req|left; apply v_body_req; assumption].
  - destruct (I_cur s c i HI Ec) as (Hi&Ho&Hg&HV).
    apply (lift_K0 s c i (Core.with_q (conns s c) q) (QUnsub id cnt)); auto; [apply ext_body_unsub|].
    destruct (v_body_unsub s c _ q i Hg HV id cnt) as [A|A]; [left; exact A|right; left; split; [exact A|exact Ec]].
  - apply (I_quiet s []); [exact HI|constructor|]. apply conn_ok_set. split; [reflexivity|split; [reflexivity|]].
    intros it Hin. left. rewrite Eq. right. exact Hin.
  - destruct (I_cur s c i HI Ec) as (Hi&Ho&Hg&HV).
    apply (lift_K0 s c i (xtok (conns s c) q t) (QToken t)); auto; [destruct (tokset (conns s c)); [apply x_reacc|apply ext_refl]|].
    left. apply v_body_token; assumption.
  - apply (I_quiet s []); [exact HI|constructor|]. apply conn_ok_set. split; [reflexivity|split; [reflexivity|]].
    intros it Hin. left. rewrite Eq. right. exact Hin.
  - destruct (g_i_q _ HI c (QAccess i)) as [Hi Ho]; [rewrite Eq; left; reflexivity|].
    apply (lift_K0 s c i (Core.with_q (conns s c) q) (QAccess i)); auto; [apply ext_refl|]. right. right. auto.
  - destruct (g_i_q _ HI c (QAccess i)) as [Hi Ho]; [rewrite Eq; left; reflexivity|].
    pose proof (g_i_live _ HI i Hi Eg) as HV. rewrite Ho in HV.
    apply (lift_K0 s c i (Core.with_q (conns s c) q) (QAccess i)); auto; [apply ext_body_access|].
    destruct (v_body_access s c _ q i Eg HV) as [A|A]; [left; exact A|right; left; split; [exact A|exact (g_v_cur _ _ _ _ _ _ _ HV)]].
  - destruct (g_i_q _ HI c (QSub i)) as [Hi Ho]; [rewrite Eq; left; reflexivity|].
    apply (lift s c i (actk (K0 s (Core.with_q (conns s c) q) (insts s i)) (Conv.RunC upd i)) _ (QSub i)); auto;
      [reflexivity|repeat constructor|apply ext_body_sub|].
    destruct (sgone (csubs (cv s) i)) eqn:Eg.
    + destruct (body_sub_gone s c (conns s c) q i (g_i_inv _ HI) Eg) as (T1&T2&_). cbv zeta in T1, T2. right. right. rewrite T1, T2. auto.
    + pose proof (g_i_live _ HI i Hi Eg) as HV. rewrite Ho in HV. left. apply v_body_sub; [exact Eg|exact HV|apply (g_i_inv _ HI)].
  - apply I_dispose; assumption.
Qed.

Lemma I_answer s i g : g_I s -> i < next s -> Core.unanswered (insts s i) = true ->
  let y := insts s i in
  g_I {| Core.cv := cstep (cv s) (Conv.SvcNop upd i); Core.conns := conns s; Core.next := next s; Core.mqsub := Core.mqsub val upd s;
         Core.getreq := Core.getreq val upd s;
         Core.insts := Core.set_inst (insts s) i (Core.upd_y y (Core.acb y) (Core.rcb y) (Core.acc y) (Core.inflight y) (Some g)
                                                     (Core.reflag y) (Core.rq y) (Core.lost y)) |}.
Proof.
  intros HI Hi Hu. cbn zeta. pose proof HI as [I1 I2 I3 I4 I5 I6 I7 I8].
  assert (A : forall j, csubs (cstep (cv s) (Conv.SvcNop upd i)) j = csubs (cv s) j) by (intros j; apply subs_other; cbn [tgt]; congruence).
  assert (Hinf : Core.inflight (insts s i) = true) by (unfold Core.unanswered in Hu; apply andb_prop in Hu; tauto).
  assert (Hown : forall j, Core.owner (Core.set_inst (insts s) i (Core.upd_y (insts s i) (Core.acb (insts s i)) (Core.rcb (insts s i)) (Core.acc (insts s i))
                 (Core.inflight (insts s i)) (Some g) (Core.reflag (insts s i)) (Core.rq (insts s i)) (Core.lost (insts s i))) j) = Core.owner (insts s j)).
  { intros j. destruct (Nat.eq_dec j i) as [->|Hne]; [rewrite set_inst_eq; reflexivity|rewrite set_inst_neq by exact Hne; reflexivity]. }
  constructor; cbn [Core.cv Core.conns Core.insts Core.next]; try (intros *; rewrite ?A).
  - apply cstep_inv, I1.
  - intros Hj. rewrite set_inst_neq by lia. apply I2, Hj.
  - intros Hc. rewrite Hown. apply I3, Hc.
  - apply I4.
  - intros Hj Hg. rewrite Hown. pose proof (I5 j Hj Hg) as HV.
    destruct (Nat.eq_dec j i) as [->|Hne]; [rewrite set_inst_eq; apply V_answer; assumption|rewrite set_inst_neq by exact Hne; exact HV].
  - intros Hin. apply I6 in Hin. destruct it; cbn [g_qok Core.next Core.insts] in *; auto; rewrite Hown; exact Hin.
  - intros Hin. apply (nop_steps [_]) in Hin. destruct Hin as [Hin|[E|[]]]; [apply I7, Hin|injection E as <-; exact Hi].
  - intros Hj Hg. destruct (Nat.eq_dec j i) as [->|Hne]; [rewrite set_inst_eq; apply I8; assumption|rewrite set_inst_neq by exact Hne; apply I8; assumption].
Qed.

Lemma I_step s o : g_I s -> g_I (fst (step s o)).
Proof.
  intros HI. destruct o as [c id|c id cnt|c|c t|i g| |u| | | |c].
  - unfold Core.step. destruct (Core.disc (conns s c)); [exact HI|]. cbn [fst Core.acts_of].
    apply I_quiet; [exact HI|constructor|]. apply conn_ok_set, (conn_ok_snoc _ _ _ (Core.QReq id)); reflexivity.
  - unfold Core.step. destruct (Core.disc (conns s c)); [exact HI|]. cbn [fst Core.acts_of].
    apply I_quiet; [exact HI|constructor|]. apply conn_ok_set, (conn_ok_snoc _ _ _ (Core.QUnsub id cnt)); reflexivity.
  - unfold Core.step. destruct (Core.disc (conns s c)); [exact HI|]. cbn [fst Core.acts_of].
    apply I_quiet; [exact HI|constructor|]. apply conn_ok_set, (conn_ok_snoc _ _ _ Core.QDispose); reflexivity.
  - unfold Core.step. destruct (Core.is_done (conns s c)); [exact HI|]. cbn [fst Core.acts_of].
    apply I_quiet; [exact HI|constructor|]. apply conn_ok_set, (conn_ok_snoc _ _ _ (Core.QToken t)); reflexivity.
  - unfold Core.step. cbn [Core.acts_of]. destruct (Nat.ltb i (next s) && Core.unanswered (insts s i)) eqn:E; [|exact HI].
    cbn [fst fold_left]. apply andb_prop in E. destruct E as [E1 E2]. apply Nat.ltb_lt in E1. apply I_answer; assumption.
  - unfold Core.step. cbn [Core.acts_of fst]. apply I_quiet; [exact HI| |apply conn_ok_refl]. destruct (_ && _); repeat constructor.
  - unfold Core.step. cbn [Core.acts_of fst]. apply I_quiet; [exact HI| |apply conn_ok_refl]. destruct (Core.mqsub val upd s); repeat constructor.
  - unfold Core.step. cbn [Core.acts_of fst]. apply I_quiet; [exact HI| |apply conn_ok_refl]. destruct (Core.mqsub val upd s); repeat constructor.
  - unfold Core.step. cbn [Core.acts_of fst]. apply I_quiet; [exact HI| |apply conn_ok_refl]. destruct (Core.mqsub val upd s); repeat constructor.
  - unfold Core.step. cbn [Core.acts_of fst]. apply I_quiet; [exact HI|repeat constructor|].
    intros c. match goal with |- context [Core.pass _ _ ?σ ?own (Core.fan _ _ _ ?σ' _ ?n ?f)] => destruct (grant_conns σ σ' own n f c) as (A&[B C _ _ _]) end.
    split; [exact B|]. split; [exact C|]. rewrite A.
    intros it Hin. apply in_app_or in Hin. destruct Hin as [Hin|Hin]; [apply in_app_or in Hin; destruct Hin as [Hin|Hin]|].
    + left. exact Hin.
    + right. apply in_qsubs_for in Hin. destruct Hin as (j & -> & Hj & Ho). cbn [g_qok]. auto.
    + right. apply in_qacc_for in Hin. destruct Hin as (j & -> & Ho & Hn). cbn [g_qok]. split; [apply (g_i_nop _ HI), Hn|exact Ho].
  - apply I_grant, HI.
Qed.

Lemma I_init t : g_I (Core.init val upd d t).
Proof.
  constructor; cbn; try discriminate; try contradiction; auto.
  - apply Conv.init_inv.
  - intros j Hj Hg. lia.
Qed.

Lemma g_I_exec t ops : g_I (fst (exec t ops)).
Proof. apply exec_state_ind; [apply I_init|]. intros ops' o s. apply I_step. Qed.

Theorem core_revalidation_holds_events : forall t ops i,
  let s := fst (exec t ops) in
  Core.rq (insts s i) = true -> Conv.gone val upd (csubs (cv s) i) = false ->
  Conv.flag val upd (csubs (cv s) i) = true /\ In Core.AVal (Core.acb (insts s i)) /\ Core.acc (insts s i) = None /\
  Core.inflight (insts s i) = true.
Proof.
  intros t ops i s Hrq Hg. pose proof (g_I_exec t ops) as HI. fold s in HI.
  destruct (Nat.lt_ge_cases i (next s)) as [Hi|Hi].
  - destruct (g_v_rq _ _ _ _ _ _ _ (g_i_live _ HI i Hi Hg) Hrq) as (A&_&_&B&C&D). auto.
  - destruct (g_i_fresh _ HI i Hi) as [E _]. rewrite E in Hrq. discriminate Hrq.
Qed.

Theorem core_token_triggers_revalidation : forall t ops c tk q i,
  let s := fst (exec t ops) in
  Core.cqueue (conns s c) = Core.QToken tk :: q -> Core.tokset (conns s c) = true ->
  Core.cur (conns s c) = Some i -> 0 < Core.direct (conns s c) ->
  let s' := fst (Core.step val upd app norm s (Core.GrantConn upd c)) in
  Core.tok (conns s' c) = tk /\
  (Core.rq (insts s' i) = true \/ Core.reflag (insts s' i) = true) /\
  Conv.flag val upd (csubs (cv s') i) = true.
Proof.
  intros t ops c tk q i s Eq Et Ec Hd s'. pose proof (g_I_exec t ops) as HI. fold s in HI.
  destruct (I_cur s c i HI Ec) as (Hi&Ho&Hg&HV). unfold s'. rewrite step_conn by (rewrite Eq; discriminate).
  destruct (ct_spec s c) as [E1|id q' E1 E2|id q' i' E1 E2|id cnt q' i' E1 E2|id cnt q' E1 E2|t' q' i' E1 E2|t' q' E1 E2|i' q' E1 E2|i' q' E1 E2|i' q' E1|q' E1];
    try congruence.
  rewrite Eq in E1. injection E1 as <- <-. rewrite Ec in E2. injection E2 as <-. rewrite Et. cbn [fst Core.cv Core.conns Core.insts].
  destruct (v_reacc c i (K0 s (xtok (conns s c) q tk) (insts s i))) as (A&B&C&D); [apply (v_start s (conns s c) i Hg HV); reflexivity|].
  rewrite set_conn_eq, set_inst_eq, D. split; [reflexivity|]. split; [exact C|exact B].
Qed.

Theorem core_denied_revalidation_revokes : forall t ops c i q,
  let s := fst (exec t ops) in
  Core.cqueue (conns s c) = Core.QAccess i :: q ->
  Conv.gone val upd (csubs (cv s) i) = false -> Core.ans (insts s i) = Some false -> In Core.AVal (Core.acb (insts s i)) ->
  let '(s', o) := Core.step val upd app norm s (Core.GrantConn upd c) in
  Core.cur (conns s' c) = None /\ Core.direct (conns s' c) = 0 /\ Conv.gone val upd (csubs (cv s') i) = true /\
  (0 < Core.direct (conns s c) -> Core.count_out val upd (fun o => match o with Core.OUnsubEv _ _ c' => Nat.eqb c' c | _ => false end) o = 1) /\
  (forall o', In o' o -> match o' with Core.OEvent _ _ _ _ | Core.OCustom _ _ _ => False | _ => True end).
Proof.
  intros t ops c i q s Eq Eg Ea Hin. pose proof (g_I_exec t ops) as HI. fold s in HI.
  destruct (g_i_q _ HI c (Core.QAccess i)) as [Hi Ho]; [rewrite Eq; left; reflexivity|].
  pose proof (g_i_live _ HI i Hi Eg) as HV. rewrite Ho in HV.
  rewrite step_conn by (rewrite Eq; discriminate).
  destruct (ct_spec s c) as [Q1|id q' Q1 Q2|id q' i' Q1 Q2|id cnt q' i' Q1 Q2|id cnt q' Q1 Q2|t' q' i' Q1 Q2|t' q' Q1 Q2|i' q' Q1 Q2|i' q' Q1 Q2|i' q' Q1|q' Q1];
    try congruence.
  rewrite Eq in Q1. injection Q1 as <- <-. unfold body_access. cbv beta iota zeta. rewrite Ea.
  destruct (acb_cases _ (g_v_tl _ _ _ _ _ _ _ HV)) as [(r&Er&Hr)|Hn]; [|contradiction].
  match goal with |- context [fold_left (run_cb c i false) _ ?K] =>
    destruct (denied_val_l c i _ r K Er Eg (g_v_dir _ _ _ _ _ _ _ HV) eq_refl) as [(G2&C2&D2&_) (o2&O2&E2)] end.
  cbn [Core.cv Core.conns]. rewrite set_conn_eq. split; [exact C2|]. split; [exact D2|]. split; [exact G2|].
  rewrite O2. cbn [Core.to Core.sety List.app].
  assert (Herr : forall o', In o' o2 -> exists id e, o' = Core.OErr val upd c id e) by (apply Forall_forall, E2).
  split.
  - intros _. change (Core.OUnsubEv val upd c :: o2) with ([Core.OUnsubEv val upd c] ++ o2). rewrite count_app.
    unfold Core.count_out at 1. cbn [filter]. rewrite Nat.eqb_refl. cbn [length].
    assert (Z : forall l, (forall o', In o' l -> exists id e, o' = Core.OErr val upd c id e) ->
              Core.count_out val upd (fun o => match o with Core.OUnsubEv _ _ c' => Nat.eqb c' c | _ => false end) l = 0).
    { induction l as [|a l IH]; intros Hl; [reflexivity|]. unfold Core.count_out in *. cbn [filter].
      destruct (Hl a (or_introl eq_refl)) as (id&e&->). apply IH. intros o' Ho'. apply Hl. right. exact Ho'. }
    rewrite (Z o2 Herr). reflexivity.
  - intros o' [<-|Ho']; [exact I|]. destruct (Herr o' Ho') as (id&e&->). exact I.
Qed.

(* what quiescence needs: everybody subscribed is loaded in the end *)
Definition g_notadd (it : Conv.eitem val upd) : Prop := match it with Conv.IAddSub _ _ _ => False | _ => True end.

Record g_J (s : st_) : Prop := {
  g_j_sd : forall i, i < next s -> ssubscribed (csubs (cv s) i) = true;
  g_j_m : Core.mqsub val upd s = false -> Forall g_notadd (cqe (cv s)) /\ Core.getreq val upd s = false;
  g_j_g : Core.getreq val upd s = false -> Conv.rs_subs val upd (cv s) = [];
  g_j_ql : forall i, i < next s -> length (scq (csubs (cv s) i)) <= cntq i (Core.cqueue (conns s (Core.owner (insts s i)))) }.

(* [g_j_m] is what the count of the get requests knows already *)
Lemma go_notadd s outs : GO s outs -> mqsub s = false -> Forall g_notadd (cqe (cv s)) /\ getreq s = false.
Proof.
  intros H Hm. split.
  - destruct (g_0 _ _ H Hm) as [_ N]. apply Forall_forall. intros [u| |v|j|j| |n] Hin; try exact I. exact (N j Hin).
  - destruct (getreq s) eqn:E; [|reflexivity]. rewrite (g_gs _ _ H E) in Hm. discriminate Hm.
Qed.

Lemma J_keep s σ' f' insts' gr : g_J s ->
  (mqsub s = false -> Forall g_notadd (cqe σ') /\ gr = false) ->
  (forall j, ssubscribed (csubs (cv s) j) = true -> ssubscribed (csubs σ' j) = true) ->
  (gr = false -> getreq s = false /\ (Conv.rs_subs val upd (cv s) = [] -> Conv.rs_subs val upd σ' = [])) ->
  (forall j, j < next s -> owner (insts' j) = owner (insts s j)) ->
  (forall j, j < next s -> length (scq (csubs σ' j)) + cntq j (cqueue (conns s (owner (insts s j)))) <=
                           length (scq (csubs (cv s) j)) + cntq j (cqueue (f' (owner (insts s j))))) ->
  g_J {| Core.cv := σ'; Core.conns := f'; Core.insts := insts'; Core.next := next s; Core.mqsub := mqsub s; Core.getreq := gr |}.
Proof.
  intros [J1 J2 J3 J4] Hm Hsd Hg Ho Hq. constructor; cbn [Core.cv Core.conns Core.insts Core.next Core.mqsub Core.getreq].
  - intros i Hi. apply Hsd, J1, Hi.
  - exact Hm.
  - intros G. destruct (Hg G) as [G0 R]. apply R, J3, G0.
  - intros i Hi. rewrite (Ho i Hi). specialize (Hq i Hi). specialize (J4 i Hi). lia.
Qed.

Lemma J_env s acts f' insts' : g_J s -> Forall (fun a => a <> Conv.RunE upd) acts ->
  (mqsub s = false -> Forall g_notadd (cqe (fold_left cstep acts (cv s))) /\ getreq s = false) ->
  (forall j, j < next s -> owner (insts' j) = owner (insts s j)) ->
  (forall j, length (scq (csubs (fold_left cstep acts (cv s)) j)) <= length (scq (csubs (cv s) j))) ->
  (forall c j, cntq j (cqueue (conns s c)) <= cntq j (cqueue (f' c))) ->
  g_J {| Core.cv := fold_left cstep acts (cv s); Core.conns := f'; Core.insts := insts'; Core.next := next s;
         Core.mqsub := mqsub s; Core.getreq := getreq s |}.
Proof.
  intros HJ Ha Hm Ho Hcq Hq. apply J_keep; auto.
  - intros j. apply subscribed_steps.
  - intros G. split; [exact G|]. rewrite rs_subs_steps by exact Ha. auto.
  - intros j Hj. specialize (Hcq j). specialize (Hq (owner (insts s j)) j). lia.
Qed.

Lemma J_push s c x' : g_J s -> (forall j, cntq j (cqueue (conns s c)) <= cntq j (cqueue x')) ->
  (mqsub s = false -> Forall g_notadd (cqe (cv s)) /\ getreq s = false) ->
  g_J {| Core.cv := fold_left cstep [] (cv s); Core.conns := Core.set_conn (conns s) c x'; Core.insts := insts s; Core.next := next s;
         Core.mqsub := mqsub s; Core.getreq := getreq s |}.
Proof.
  intros HJ Hq Hm. apply J_env; auto.
  intros c' j. destruct (Nat.eq_dec c' c) as [->|Hne]; [rewrite set_conn_eq; apply Hq|rewrite set_conn_neq by exact Hne; lia].
Qed.

Lemma J_svc_maybe_rune s outs a : GO s outs -> g_J s -> tgt a = None -> a <> Conv.RunE upd -> (forall j, a <> Conv.Subscribe upd j) ->
  (mqsub s = false -> Forall g_notadd (cqe (fold_left cstep (if mqsub s then [a] else [a; Conv.RunE upd]) (cv s))) /\ getreq s = false) ->
  g_J {| Core.cv := fold_left cstep (if mqsub s then [a] else [a; Conv.RunE upd]) (cv s); Core.conns := conns s; Core.insts := insts s;
         Core.next := next s; Core.mqsub := mqsub s; Core.getreq := getreq s |}.
Proof.
  intros HG HJ Ht Hr Hs Hm.
  assert (A : forall σ j, csubs (cstep σ a) j = csubs σ j) by (intros σ j; apply subs_other; [rewrite Ht; discriminate|exact Hr]).
  destruct (Bool.bool_dec (mqsub s) true) as [Em|Em].
  - assert (E : (if mqsub s then [a] else [a; Conv.RunE upd]) = [a]) by (rewrite Em; reflexivity). rewrite E in *. apply J_env; auto. intros j. cbn [fold_left]. rewrite A. lia.
  - apply not_true_is_false in Em.
    assert (E : (if mqsub s then [a] else [a; Conv.RunE upd]) = [a; Conv.RunE upd]) by (rewrite Em; reflexivity). rewrite E in *.
    destruct (g_0 _ _ HG Em) as [_ N]. destruct (Hm Em) as [_ G]. cbn [fold_left] in *.
    assert (R : Conv.rs_subs val upd (cstep (cv s) a) = []) by (rewrite rs_subs_step by exact Hr; apply (g_j_g _ HJ G)).
    assert (H : Core.is_add_head val upd (cstep (cv s) a) = false).
    { apply no_add_head. intros j Hin. apply (add_steps [a]) in Hin. destruct Hin as [Hin|[X|[]]]; [exact (N j Hin)|exact (Hs j X)]. }
    destruct (rune_idle _ R H) as [C R']. apply J_keep; auto.
    + intros j. apply (subscribed_steps [a; Conv.RunE upd]).
    + intros j Hj. rewrite C, A. lia.
Qed.

Lemma head_sub_cons it q j : head_sub (it :: q) j = is_qsub j it.
Proof. destruct it; cbn [head_sub is_qsub]; try reflexivity. apply Nat.eqb_sym. Qed.

Lemma task_norune s c : let '(k, oi, nx, ms) := conn_task s c in Forall (fun a => a <> Conv.RunE upd) (ta k).
Proof.
  pose proof (task_shape s c) as T. destruct (conn_task s c) as [[[k oi] nx] ms]. destruct (t_kind T) as [P|[N|D]].
  - eapply Forall_impl; [|exact (tp_acts P)]. intros a Ha. apply (tact_tgt _ _ Ha).
  - rewrite (tn_acts N). repeat constructor. discriminate.
  - rewrite (td_acts D). apply Forall_forall. intros a Ha. apply in_map_iff in Ha. destruct Ha as (j&<-&_). discriminate.
Qed.

Lemma J_grant s outs c : GO s outs -> g_I s -> g_J s -> g_J (fst (step s (Core.GrantConn upd c))).
Proof.
  intros HG HI HJ. pose proof (go_notadd _ _ (go_step s outs (Core.GrantConn upd c) HG)) as Hm. revert Hm.
  apply grant_ind; [intros _ _; exact HJ|]. intros it q k oi nx ms Eq Ec [Hsy Hq _ Hsh]. destruct HJ as [J1 J2 J3 J4].
  pose proof (task_norune s c) as Hnr. pose proof (task_cq s c) as Hcq. pose proof (task_owner s c) as Hown.
  rewrite Ec in Hnr, Hcq, Hown. cbn [fst snd]. intros Hm. unfold sync in Hsy. rewrite Eq in Hq, Hcq. cbn [tl] in Hq.
  assert (Hnx : nx = next s \/ (nx = S (next s) /\ ta k = [Conv.Subscribe upd (next s)])).
  { destruct Hsh as [P|[N|D]]; [left; exact (tp_next P)|right; exact (conj (tn_next N) (tn_acts N))|left; exact (td_next D)]. }
  constructor; cbn [Core.cv Core.conns Core.insts Core.next Core.mqsub Core.getreq].
  - intros j Hj. rewrite Hsy. destruct (Nat.lt_ge_cases j (next s)) as [Hlt|Hge]; [apply subscribed_steps, J1, Hlt|].
    destruct Hnx as [->|(->&E)]; [lia|]. assert (j = next s) by lia. subst j. rewrite E.
    apply (subscribe_fresh _ _ (proj2 (g_i_fresh _ HI (next s) (le_n _)))).
  - exact Hm.
  - intros G. rewrite Hsy, rs_subs_steps by exact Hnr. apply J3, G.
  - intros j Hj. rewrite Hcq, head_sub_cons. destruct (Nat.lt_ge_cases j (next s)) as [Hlt|Hge].
    + assert (Ho : owner (match oi with Some i => Core.set_inst (insts s) i (ty k) | None => insts s end j) = owner (insts s j)).
      { destruct oi as [i|]; [|reflexivity].
        destruct (Nat.eq_dec j i) as [->|Hne]; [rewrite set_inst_eq; apply Hown; [reflexivity|exact Hlt]|rewrite set_inst_neq by exact Hne; reflexivity]. }
      rewrite Ho. specialize (J4 j Hlt). destruct (Nat.eq_dec (owner (insts s j)) c) as [E|E].
      * rewrite E in *. rewrite set_conn_eq, Hq. rewrite Eq, cntq_cons in J4.
        destruct (is_qsub j it); [destruct (scq (csubs (cv s) j)); cbn [tl length] in *; lia|lia].
      * rewrite set_conn_neq by exact E. destruct (is_qsub j it); [destruct (scq (csubs (cv s) j)); cbn [tl length] in *; lia|exact J4].
    + rewrite (proj2 (g_i_fresh _ HI j Hge)). destruct (is_qsub j it); cbn; lia.
Qed.

Lemma J_step s outs o : GO s outs -> g_I s -> g_J s -> g_J (fst (step s o)).
Proof.
  intros HG HI HJ. pose proof (go_notadd _ _ (go_step s outs o HG)) as Hm. revert Hm.
  destruct o as [c id|c id cnt|c|c t|i g| |u| | | |c].
  - unfold Core.step. destruct (Core.disc (conns s c)); [intros _; exact HJ|]. cbn [fst Core.acts_of]. intros Hm.
    apply J_push; auto. intros j. cbn [Core.push_q Core.with_q Core.cqueue]. rewrite cntq_app. lia.
  - unfold Core.step. destruct (Core.disc (conns s c)); [intros _; exact HJ|]. cbn [fst Core.acts_of]. intros Hm.
    apply J_push; auto. intros j. cbn [Core.push_q Core.with_q Core.cqueue]. rewrite cntq_app. lia.
  - unfold Core.step. destruct (Core.disc (conns s c)); [intros _; exact HJ|]. cbn [fst Core.acts_of]. intros Hm.
    apply J_push; auto. intros j. cbn [Core.cqueue]. rewrite cntq_app. lia.
  - unfold Core.step. destruct (Core.is_done (conns s c)); [intros _; exact HJ|]. cbn [fst Core.acts_of]. intros Hm.
    apply J_push; auto. intros j. cbn [Core.push_q Core.with_q Core.cqueue]. rewrite cntq_app. lia.
  - unfold Core.step. cbn [Core.acts_of]. destruct (Nat.ltb i (next s) && Core.unanswered (insts s i)); [|intros _; exact HJ].
    cbn [fst]. intros Hm. apply J_env; [exact HJ|constructor; [discriminate|constructor]|exact Hm| | |auto].
    + intros j Hj. destruct (Nat.eq_dec j i) as [->|Hne]; [rewrite set_inst_eq; reflexivity|rewrite set_inst_neq by exact Hne; reflexivity].
    + intros j. cbn [fold_left]. rewrite subs_other by (cbn [tgt]; congruence). lia.
  - unfold Core.step. cbn [Core.acts_of fst]. intros Hm. apply J_env; [exact HJ|destruct (_ && _); [constructor; [intros E; discriminate E|constructor]|constructor]|exact Hm|auto| |auto].
    intros j. destruct (_ && _); cbn [fold_left]; [rewrite subs_other by (cbn [tgt]; congruence)|]; lia.
  - unfold Core.step. cbn [Core.acts_of fst]. intros Hm. eapply (J_svc_maybe_rune s outs); eauto; first [reflexivity|discriminate].
  - unfold Core.step. cbn [Core.acts_of fst]. intros Hm. eapply (J_svc_maybe_rune s outs); eauto; first [reflexivity|discriminate].
  - unfold Core.step. cbn [Core.acts_of fst]. intros Hm. eapply (J_svc_maybe_rune s outs); eauto; first [reflexivity|discriminate].
  - unfold Core.step. cbn [Core.acts_of fst fold_left]. intros Hm. apply J_keep; auto.
    + intros j. apply subscribed_step.
    + intros G. apply orb_false_elim in G. destruct G as [G H]. split; [exact G|]. intros R. apply (rune_idle _ R H).
    + intros j Hj.
      match goal with |- context [Core.pass _ _ ?σ ?own (Core.fan _ _ _ ?σ' _ ?n ?f)] => destruct (grant_conns σ σ' own n f (owner (insts s j))) as (A&_) end.
      rewrite A, !cntq_app.
      destruct (rune_sub (cv s) j) as [E|(it & E & _)]; rewrite E; [lia|]. cbn [Conv.push_c Conv.cq].
      rewrite app_length. cbn [length].
      assert (X : 1 <= cntq j (qsubs_for (cv s) (cstep (cv s) (Conv.RunE upd)) (fun i => owner (insts s i)) (owner (insts s j)) (seq 0 (next s)))).
      { apply cntq_in. unfold qsubs_for. apply in_map. apply filter_In. split; [apply in_seq; lia|].
        rewrite Nat.eqb_refl, andb_true_r. unfold Core.grew. rewrite E. cbn [Conv.push_c Conv.cq]. rewrite app_length. cbn [length]. apply Nat.ltb_lt. lia. }
      lia.
  - intros _. apply (J_grant s outs); assumption.
Qed.

Lemma J_init t : g_J (Core.init val upd d t).
Proof. constructor; cbn; auto; intros; try lia. Qed.

Lemma g_IJ_exec t ops : g_I (fst (exec t ops)) /\ g_J (fst (exec t ops)).
Proof.
  split; [apply g_I_exec|]. apply exec_state_ind; [apply J_init|].
  intros ops' o s HJ. apply (J_step s (snd (exec t ops'))); [apply go_exec|apply g_I_exec|exact HJ].
Qed.

Lemma quiet_member s j : g_I s -> g_J s -> quiescent s ->
  Conv.mem j (Conv.rs_subs val upd (cv s)) = true -> sloaded (csubs (cv s) j) = true.
Proof.
  intros HI J (Hqe & Hqc & Hg & _) Hm. pose proof (g_i_inv _ HI) as Hinv.
  assert (Hcq : scq (csubs (cv s) j) = []).
  { destruct (Nat.lt_ge_cases j (next s)) as [Hlt|Hge]; [|rewrite (proj2 (g_i_fresh _ HI j Hge)); reflexivity].
    pose proof (g_j_ql _ J j Hlt) as H. rewrite Hqc in H. destruct (scq (csubs (cv s) j)); [reflexivity|inversion H]. }
  assert (Hrl : Conv.rs_loaded val upd (cv s) = true).
  { destruct (getreq s) eqn:Eg; [|rewrite (g_j_g _ J Eg) in Hm; discriminate Hm].
    pose proof (Conv.i2 _ _ _ _ Hinv) as H2. rewrite Hqe, (Hg eq_refl) in H2. cbn in H2.
    destruct (Conv.rs_loaded val upd (cv s)); [reflexivity|discriminate]. }
  pose proof (Conv.i4 _ _ _ _ Hinv j) as H4. rewrite Hcq, Hm, Hrl, Hqe in H4. cbn in H4.
  destruct (sloaded (csubs (cv s) j)); [reflexivity|discriminate].
Qed.

Theorem core_quiescent_validated : forall t ops c i,
  let s := fst (exec t ops) in
  quiescent s -> Core.cur (conns s c) = Some i ->
  Core.rq (insts s i) = false /\ Core.reflag (insts s i) = false /\ Core.acb (insts s i) = [] /\
  (0 < Core.direct (conns s c) -> Core.acc (insts s i) = Some true).
Proof.
  intros t ops c i s Hqs Ec. pose proof Hqs as (Hqe&Hcq&Hget&Hinf). destruct (g_IJ_exec t ops) as [HI HJ]. fold s in HI, HJ.
  destruct (g_i_cur _ HI c i Ec) as (Hi&Ho&Hg). pose proof (g_i_live _ HI i Hi Hg) as HV. rewrite Ho in HV.
  specialize (Hinf i Hi).
  assert (Hacb : Core.acb (insts s i) = []).
  { destruct (Core.acb (insts s i)) eqn:E; [reflexivity|]. destruct (g_v_acb _ _ _ _ _ _ _ HV) as [X _]; [rewrite E; discriminate|congruence]. }
  assert (Hrq : Core.rq (insts s i) = false).
  { destruct (Core.rq (insts s i)) eqn:E; [|reflexivity]. destruct (g_v_rq _ _ _ _ _ _ _ HV E) as (_&_&_&_&_&X). congruence. }
  assert (Hacc : Core.acc (insts s i) = Some true).
  { destruct (Core.acc (insts s i)) as [[|]|] eqn:E; [reflexivity| |].
    - exfalso. exact (g_v_accf _ _ _ _ _ _ _ HV E).
    - pose proof (g_v_accn _ _ _ _ _ _ _ HV E). congruence. }
  pose proof (g_i_inv _ HI) as Hinv.
  assert (Hmem : Conv.mem i (Conv.rs_subs val upd (cv s)) = true).
  { pose proof (Conv.i3 _ _ _ _ Hinv i Hg) as H3. rewrite Hqe, (g_j_sd _ HJ i Hi) in H3. cbn in H3.
    destruct (Conv.mem i (Conv.rs_subs val upd (cv s))); [reflexivity|cbn in H3; lia]. }
  pose proof (quiet_member s i HI HJ Hqs Hmem) as Hld.
  assert (Hsn : ssent (csubs (cv s) i) = true).
  { destruct (ssent (csubs (cv s) i)) eqn:E; [reflexivity|]. rewrite Hld in HV. pose proof (g_v_sent _ _ _ _ _ _ _ HV eq_refl eq_refl Hacc) as X. discriminate X. }
  assert (Hfl : sflag (csubs (cv s) i) = false).
  { rewrite Hld, Hsn in HV. exact (g_v_flag _ _ _ _ _ _ _ HV eq_refl eq_refl Hrq). }
  split; [exact Hrq|]. split; [|split; [exact Hacb|intros _; exact Hacc]].
  destruct (Core.reflag (insts s i)) eqn:E; [|reflexivity]. pose proof (g_v_refl _ _ _ _ _ _ _ HV E). congruence.
Qed.

(* removeCount: the frames sent stay, the count drops by n (not below 0), and unless the subscription is disposed with the
   last count nothing else of the task changes *)
Lemma remove_direct_spec i k n :
  let k' := remove_direct i k n in
  to k' = to k /\ direct (tx k') = direct (tx k) - n /\
  (cur (tx k') = None \/ ts k' = ts k /\ ty k' = ty k /\ cur (tx k') = cur (tx k)).
Proof.
  cbv zeta. unfold Core.remove_direct. destruct (Nat.eqb_spec (direct (tx k)) 0) as [E|E]; [rewrite E; repeat split; auto|]. cbv zeta.
  cbn [Core.setx Core.tx Core.with_cd direct]. destruct (Nat.eqb (direct (tx k) - n) 0); [|cbn; repeat split; auto].
  unfold Core.dispose_t. match goal with |- context [if ?b then _ else _] => destruct b end; cbv zeta; cbn; repeat split; auto.
Qed.

Lemma body_unsub_spec s c x id cnt q i :
  let k := body_unsub s c x id cnt q i in
  to k = [if Nat.eqb cnt 0 then OErr c id Core.EInvalid else if Nat.leb cnt (direct x) then OAck c id cnt else OErr c id Core.ENoSub] /\
  direct (tx k) = if negb (Nat.eqb cnt 0) && Nat.leb cnt (direct x) then direct x - cnt else direct x.
Proof.
  cbv zeta. unfold body_unsub. cbv zeta. destruct (Nat.eqb cnt 0); [split; reflexivity|].
  destruct (Nat.leb cnt (direct x)); [|split; reflexivity].
  match goal with |- context [remove_direct i ?K cnt] => destruct (remove_direct_spec i K cnt) as (A&B&_) end.
  cbv zeta in A, B. rewrite A, B. destruct (Nat.eqb (direct x - cnt) 0); split; reflexivity.
Qed.

Definition fresh (σ : cst) (i : nat) : Prop :=
  ssubscribed (csubs σ i) = false /\ ssent (csubs σ i) = false /\ sgone (csubs σ i) = false /\ scq (csubs σ i) = [].

Record WF (s : st_) : Prop := {
  w_cur : forall c i, cur (conns s c) = Some i ->
            i < next s /\ owner (insts s i) = c /\ sgone (csubs (cv s) i) = false /\ 0 < direct (conns s c);
  w_live : forall i, i < next s -> sgone (csubs (cv s) i) = false -> cur (conns s (owner (insts s i))) = Some i;
  w_fresh : forall i, next s <= i -> fresh (cv s) i;
  w_q : forall c it, In it (cqueue (conns s c)) -> g_qok s c it;
  w_disp : forall c, In QDispose (cqueue (conns s c)) -> disc (conns s c) = true;
  w_dir : forall c, cur (conns s c) = None -> direct (conns s c) = 0 }.

(* the disposal task is queued only by the client's closing the connection, which is never undone *)
Lemma qdispose_exec t ops c : In QDispose (cqueue (conns (fst (exec t ops)) c)) -> disc (conns (fst (exec t ops)) c) = true.
Proof.
  revert c. apply exec_state_ind; [intros c []|]. intros ops' o s IH cl Hin.
  assert (H : In QDispose (cqueue (conns s cl)) \/ disc (conns (fst (step s o)) cl) = true);
    [|destruct H as [H|H]; [apply disc_mono, IH, H|exact H]].
  revert Hin. destruct o as [c id|c id k|c|c t'|i g| |u| | | |c]; unfold Core.step.
  1, 2, 4: match goal with |- context [if ?b then _ else _] => destruct b end; [auto|]; cbn [fst Core.conns]; destruct (Nat.eq_dec cl c) as [->|Hne]; [rewrite !set_conn_eq|rewrite !set_conn_neq by exact Hne]; cbn [Core.push_q Core.with_q cqueue disc]; [|auto];
           intros Hin; apply in_snoc in Hin; destruct Hin as [Hin|Hin]; [auto|discriminate].
  3-6: auto.
  - destruct (disc (conns s c)); [auto|]. cbn [fst Core.conns]. destruct (Nat.eq_dec cl c) as [->|Hne]; [rewrite !set_conn_eq|rewrite !set_conn_neq by exact Hne]; cbn [Core.push_q Core.with_q cqueue disc]; auto.
  - destruct (_ && _); auto.
  - cbn [fst Core.conns].
    match goal with |- In _ (cqueue (Core.pass _ _ ?σ ?own (Core.fan _ _ _ ?σ' _ ?n ?f) _)) -> _ => destruct (grant_conns σ σ' own n f cl) as (B&_) end.
    rewrite B. intros Hin. apply in_app_or in Hin. destruct Hin as [Hin|Hin]; [apply in_app_or in Hin; destruct Hin as [Hin|Hin]|].
    + auto.
    + apply in_qsubs_for in Hin. destruct Hin as (i & E & _). discriminate E.
    + apply in_qacc_for in Hin. destruct Hin as (i & E & _). discriminate E.
  - fold (step s (Core.GrantConn upd c)). destruct (Nat.eq_dec cl c) as [->|Hne]; [|rewrite conns_other by exact Hne; auto].
    rewrite (proj1 (grant_q s c)). intros Hin. left. destruct (cqueue (conns s c)); [destruct Hin|right; exact Hin].
Qed.

Lemma wf_exec t ops : WF (fst (exec t ops)).
Proof.
  pose proof (g_I_exec t ops) as HI. pose proof HI as [Hinv Hfr Hcur Hd0 Hlive Hq _ _].
  constructor.
  - intros c i Hc. destruct (I_cur _ c i HI Hc) as (A&B&C&V). repeat split; auto. exact (g_v_dir _ _ _ _ _ _ _ V).
  - intros i Hi Hg. apply (g_v_cur _ _ _ _ _ _ _ (Hlive i Hi Hg)).
  - intros i Hi. destruct (Hfr i Hi) as [_ E]. unfold fresh. rewrite E. repeat split.
  - exact Hq.
  - intros c. apply qdispose_exec.
  - exact Hd0.
Qed.

Theorem core_unsubscribe_outcome : forall t ops c id k q,
  let s := fst (exec t ops) in
  Core.cqueue (conns s c) = Core.QUnsub id k :: q ->
  let '(s', o) := Core.step val upd app norm s (Core.GrantConn upd c) in
  let n := Core.direct (conns s c) in
  (k = 0 -> o = [Core.OErr val upd c id Core.EInvalid] /\ Core.direct (conns s' c) = n) /\
  (0 < k -> n < k -> o = [Core.OErr val upd c id Core.ENoSub] /\ Core.direct (conns s' c) = n) /\
  (0 < k -> k <= n -> o = [Core.OAck val upd c id k] /\ Core.direct (conns s' c) = n - k).
Proof.
  intros t ops c id k q s Hq. pose proof (w_dir _ (wf_exec t ops) c) as Hd. fold s in Hd.
  rewrite step_conn by (rewrite Hq; discriminate).
  destruct (ct_spec s c) as [Eq|id' q' Eq Ec|id' q' i Eq Ec|id' cnt q' i Eq Ec|id' cnt q' Eq Ec|t' q' i Eq Ec|t' q' Eq Ec|i q' Eq Eg|i q' Eq Eg|i q' Eq|q' Eq];
    try congruence; rewrite Hq in Eq; injection Eq as <- <- <-; cbn [Core.conns]; rewrite set_conn_eq.
  - destruct (body_unsub_spec s c (conns s c) id k q i) as [A B]. cbv zeta in A, B. rewrite A, B.
    destruct (Nat.eqb_spec k 0), (Nat.leb_spec k (direct (conns s c))); cbn [negb andb]; repeat split; intros; try lia; reflexivity.
  - specialize (Hd Ec). cbn. destruct (Nat.eqb_spec k 0) as [->|Hk]; repeat split; intros; try lia; reflexivity.
Qed.

Notation ledger_ := (Core.ledger val).
Notation lstep := (Core.lstep val upd app).
Notation lcnt_ L := (Core.lcnt val L).
Notation lcopy_ L := (Core.lcopy val L).
Notation mkL n v := (Core.Build_ledger val n v).

Lemma client_app c outs o : client c (outs ++ o) = fold_left (lstep c) o (client c outs).
Proof. unfold Core.client. apply fold_left_app. Qed.
Lemma fold_resp_none c r : forall L,
  fold_left (lstep c) (map (fun id' => OResp c id' None) r) L = mkL (lcnt_ L + length r) (lcopy_ L).
Proof.
  induction r as [|a r IH]; intros L; cbn [map fold_left length].
  - rewrite Nat.add_0_r. destruct L; reflexivity.
  - rewrite IH. cbn [Core.lstep]. rewrite Nat.eqb_refl. cbn [Core.lcnt Core.lcopy]. f_equal. lia.
Qed.

Lemma proc_o_fst c p e : fst (Core.proc_o val upd app c p e) = Conv.proc val upd app p e.
Proof.
  destruct p as [ver v]. unfold Core.proc_o, Conv.proc. destruct (Nat.eqb ver (Conv.e_ver upd e)); [|reflexivity].
  destruct (Conv.e_upd upd e); reflexivity.
Qed.
(* the events sent to a client leave its count alone and do to its copy what they do to the subscription's *)
Lemma proc_o_ledger c p e L :
  lcnt_ (fold_left (lstep c) (snd (Core.proc_o val upd app c p e)) L) = lcnt_ L /\
  (lcopy_ L = Some (snd p) ->
   lcopy_ (fold_left (lstep c) (snd (Core.proc_o val upd app c p e)) L) = Some (snd (Conv.proc val upd app p e))).
Proof.
  destruct p as [ver v]. unfold Core.proc_o, Conv.proc. destruct (Nat.eqb ver (Conv.e_ver upd e)); [|auto].
  destruct (Conv.e_upd upd e); cbn [snd fold_left Core.lstep]; rewrite ?Nat.eqb_refl; cbn [Core.lcnt Core.lcopy]; split; auto.
  intros ->. reflexivity.
Qed.
Lemma replay_o_ledger c l : forall p L,
  lcnt_ (fold_left (lstep c) (Core.replay_o val upd app c p l) L) = lcnt_ L /\
  (lcopy_ L = Some (snd p) ->
   lcopy_ (fold_left (lstep c) (Core.replay_o val upd app c p l) L) = Some (snd (Conv.replay val upd app p l))).
Proof.
  induction l as [|e l IH]; intros p L; [auto|]. cbn [Core.replay_o]. unfold Conv.replay. cbn [fold_left].
  pose proof (proc_o_fst c p e) as Hf. destruct (proc_o_ledger c p e L) as [A B].
  destruct (Core.proc_o val upd app c p e) as [p' o]. cbn [fst snd] in *. rewrite <- Hf in *.
  rewrite fold_left_app. destruct (IH p' (fold_left (lstep c) o L)) as [A' B']. split; [rewrite A'; exact A|].
  intros HL. apply B', B, HL.
Qed.

Lemma fold_other c o : (forall x, In x o -> Core.for_conn val upd c x = false) -> forall L, fold_left (lstep c) o L = L.
Proof.
  induction o as [|x o IH]; intros H L; [reflexivity|]. cbn [fold_left].
  assert (E : lstep c L x = L).
  { pose proof (H x (or_introl eq_refl)) as Hx. destruct x; cbn [Core.for_conn] in Hx; cbn [Core.lstep]; try reflexivity; rewrite Hx; reflexivity. }
  rewrite E. apply IH. intros y Hy. apply H. right. exact Hy.
Qed.

(* The instance a grant of connection c serves belongs to c: it is one the connection has already, or a new one, and then
   [next] moves past it. *)
Lemma task_serves s c : WF s ->
  let '(k, oi, nx, ms) := conn_task s c in
  forall i, oi = Some i -> owner (ty k) = c /\ ((i < next s /\ owner (insts s i) = c) \/ (i = next s /\ nx = S (next s))).
Proof.
  intros W. pose proof (task_owner s c) as Hown. revert Hown.
  destruct (ct_spec s c) as [Eq|id q Eq Ec|id q i Eq Ec|id cnt q i Eq Ec|id cnt q Eq Ec|t q i Eq Ec|t q Eq Ec|i q Eq Eg|i q Eq Eg|i q Eq|q Eq];
    intros Hown i0 E; try discriminate E; try (injection E as <-).
  2-4: destruct (w_cur _ W c i Ec) as (A & B & _); split; [rewrite (Hown i eq_refl A); exact B|left; auto].
  - split; [|right; auto]. exact (e_own _ _ _ _ _ (x_load false c (next s) _ (AReq id))).
  - destruct (w_q _ W c (QAccess i)) as [A B]; [rewrite Eq; left; reflexivity|]. split; [exact B|left; auto].
  - destruct (w_q _ W c (QAccess i)) as [A B]; [rewrite Eq; left; reflexivity|]. split; [rewrite (Hown i eq_refl A); exact B|left; auto].
  - destruct (w_q _ W c (QSub i)) as [A B]; [rewrite Eq; left; reflexivity|]. split; [rewrite (Hown i eq_refl A); exact B|left; auto].
  - destruct (w_cur _ W c i0 E) as (A & B & _). split; [rewrite (Hown i0 E A); exact B|left; auto].
Qed.

Lemma insts_other s c0 j : WF s -> j < next s -> owner (insts s j) <> c0 ->
  insts (fst (step s (Core.GrantConn upd c0))) j = insts s j.
Proof.
  intros Hw Hj Ho. apply grant_ind; [reflexivity|]. intros it q k oi nx ms _ Ec _. pose proof (task_serves s c0 Hw) as Hoi.
  rewrite Ec in Hoi. cbn [fst Core.insts].
  destruct oi as [i|]; [|reflexivity]. unfold Core.set_inst. destruct (Nat.eqb_spec j i) as [->|]; [|reflexivity].
  destruct (Hoi i eq_refl) as (_ & [[_ E]|[E _]]); [congruence|lia].
Qed.

Lemma subs_other_conn s c0 j : WF s -> j < next s -> owner (insts s j) <> c0 ->
  csubs (cv (fst (step s (Core.GrantConn upd c0)))) j = csubs (cv s) j.
Proof.
  intros Hw Hj Ho. rewrite step_cv. cbn [Core.acts_of]. pose proof (task_serves s c0 Hw) as Hoi.
  pose proof (task_shape s c0) as T. destruct (conn_task s c0) as [[[k oi] nx] ms]. cbn [fst snd].
  apply subs_others.
  destruct (t_kind T) as [P|[N|D]].
  - eapply Forall_impl; [|exact (tp_acts P)]. intros a X. destruct (tact_tgt _ a X) as (T1&T2&_). split; [|exact T2].
    rewrite T1. intros E. destruct (Hoi j E) as (_ & [[_ E']|[E' _]]); [congruence|lia].
  - rewrite (tn_acts N). constructor; [|constructor]. split; [|discriminate]. cbn [tgt]. intros E. injection E as E. lia.
  - rewrite (td_acts D). apply Forall_forall. intros a Hin. apply in_map_iff in Hin. destruct Hin as (j' & <- & Hin).
    apply in_insts_of in Hin. split; [|discriminate]. cbn [tgt]. intros E. injection E as ->. destruct Hin; congruence.
Qed.

Lemma svc_steps acts : Forall (fun a => tgt a = None) acts -> forall σ j,
  ssent (csubs (fold_left cstep acts σ) j) = ssent (csubs σ j) /\ sloaded (csubs (fold_left cstep acts σ) j) = sloaded (csubs σ j) /\
  sflag (csubs (fold_left cstep acts σ) j) = sflag (csubs σ j) /\ ssval (csubs (fold_left cstep acts σ) j) = ssval (csubs σ j).
Proof.
  induction 1 as [|a acts Ha _ IH]; intros σ j; cbn [fold_left]; [auto|].
  destruct (IH (cstep σ a) j) as (A&B&C&D). rewrite A, B, C, D.
  assert (Hr : a = Conv.RunE upd \/ a <> Conv.RunE upd) by (destruct a; auto; right; discriminate).
  destruct Hr as [->|Hr].
  - destruct (rune_sub σ j) as [->|(it & -> & _)]; auto.
  - rewrite subs_other; [auto|congruence|exact Hr].
Qed.

(* [pend] is Core.pending for one instance; [same_on c s s']: all that the two ledger invariants read of the state for
   connection c is unchanged *)
Definition pend (y : inst) : nat := length (Core.ids_of (acb y)) + length (rcb y).
Definition same_on (c : nat) (s s' : st_) : Prop :=
  cur (conns s' c) = cur (conns s c) /\ direct (conns s' c) = direct (conns s c) /\
  forall i, cur (conns s c) = Some i ->
    pend (insts s' i) = pend (insts s i) /\ ssent (csubs (cv s') i) = ssent (csubs (cv s) i) /\
    sloaded (csubs (cv s') i) = sloaded (csubs (cv s) i) /\ ssval (csubs (cv s') i) = ssval (csubs (cv s) i).

Lemma same_on_intro c s s' : cur (conns s' c) = cur (conns s c) -> direct (conns s' c) = direct (conns s c) ->
  (forall i, cur (conns s c) = Some i -> insts s' i = insts s i /\ csubs (cv s') i = csubs (cv s) i) -> same_on c s s'.
Proof. intros A B C. split; [exact A|]. split; [exact B|]. intros i Hc. destruct (C i Hc) as [-> ->]. repeat split. Qed.

Lemma step_frame s o c : WF s -> o <> Core.GrantConn upd c ->
  same_on c s (fst (step s o)) /\ forall L, fold_left (lstep c) (snd (step s o)) L = L.
Proof.
  intros Hw Ho. split; [|apply fold_other; intros x; apply other_quiet, Ho]. destruct (grant_dec o) as [[c0 ->]|Hn].
  - assert (Hne : c <> c0) by congruence.
    apply same_on_intro; try (rewrite conns_other by exact Hne; reflexivity).
    intros i Hc. destruct (w_cur _ Hw c i Hc) as (Hi & Hown & _).
    rewrite insts_other, subs_other_conn by (auto; congruence). auto.
  - pose proof (nongrant_step s o Hn) as N.
    split; [exact (nc_cur (ng_conn N c))|]. split; [exact (nc_direct (ng_conn N c))|]. intros i _.
    assert (Y' : pend (insts (fst (step s o)) i) = pend (insts s i)) by (destruct (ng_insts N i) as [-> |(g&_&->)]; reflexivity).
    rewrite Y', step_cv.
    destruct (svc_steps (acts_of s o) (nongrant_acts s o Hn) (cv s) i) as (S1&S2&_&S4). auto.
Qed.

(* an invariant [P] of the state and what the client made of its frames holds along an execution that has not closed the
   connection and keeps a prefix-closed premise [Q] on the frames, if it reads nothing else off the state ([same_on]) and
   a grant of the connection's own worker keeps it *)
Lemma ledger_exec c t (Q : list out_ -> Prop) (P : st_ -> ledger_ -> Prop) :
  (forall l1 l2, Q (l1 ++ l2) -> Q l1) ->
  P (Core.init val upd d t) (client c []) ->
  (forall s s' L, same_on c s s' -> P s L -> P s' L) ->
  (forall ops, let s := fst (exec t ops) in let outs := snd (exec t ops) in let g := step s (Core.GrantConn upd c) in
     disc (conns s c) = false -> Q (outs ++ snd g) -> P s (client c outs) -> P (fst g) (fold_left (lstep c) (snd g) (client c outs))) ->
  forall ops, disc (conns (fst (exec t ops)) c) = false -> Q (snd (exec t ops)) -> P (fst (exec t ops)) (client c (snd (exec t ops))).
Proof.
  intros Qpre P0 Pframe Pgrant.
  apply (exec_ind (fun s outs => disc (conns s c) = false -> Q outs -> P s (client c outs))); [intros _ _; exact P0|].
  intros ops o s outs IH Hd HQ.
  pose proof (disc_back _ _ _ Hd) as Hd0. specialize (IH Hd0 (Qpre _ _ HQ)). rewrite client_app.
  assert (Ho : o = Core.GrantConn upd c \/ o <> Core.GrantConn upd c).
  { destruct (grant_dec o) as [[c0 ->]|Hn]; [|right; apply Hn]. destruct (Nat.eq_dec c0 c) as [->|Hne]; [left; reflexivity|right; congruence]. }
  destruct Ho as [->|Ho]; [apply Pgrant; assumption|].
  destruct (step_frame s o c (wf_exec t ops) Ho) as [A B]. rewrite B. exact (Pframe _ _ _ A IH).
Qed.

(* the tasks of [CT] that work on the instance the connection holds *)
Inductive serve (s : st_) (c i : nat) : tk_ -> Prop :=
| sv_req id q : serve s c i (body_req s c (conns s c) id q i)
| sv_unsub id cnt q : serve s c i (body_unsub s c (conns s c) id cnt q i)
| sv_token t q : serve s c i (if tokset (conns s c) then reaccess c i (K0 s (xtok (conns s c) q t) (insts s i))
                              else K0 s (xtok (conns s c) q t) (insts s i))
| sv_access q : serve s c i (body_access s c (conns s c) q i)
| sv_sub q : serve s c i (body_sub s c (conns s c) q i).

Lemma sh_serve s c i k : sgone (csubs (cv s) i) = false -> cur (conns s c) = Some i -> 0 < direct (conns s c) ->
  serve s c i k -> SH i k.
Proof.
  intros Hg Hc Hd [id q|id cnt q|t q|q|q].
  - apply sh_body_req, Hg.
  - apply sh_body_unsub; assumption.
  - assert (H0 : SH i (K0 s (xtok (conns s c) q t) (insts s i))) by (left; repeat split; assumption).
    destruct (tokset (conns s c)); [|exact H0]. eapply sh_mild; [apply x_reacc|exact H0].
  - apply sh_body_access; assumption.
  - apply sh_body_sub; assumption.
Qed.

(* [g], the state and the frames after the grant, is where the task k on subscription i leaves them *)
Record served (s : st_) (c : nat) (g : st_ * list out_) (i : nat) (k : tk_) : Prop := {
  sd_cur : cur (conns s c) = Some i; sd_dir : 0 < direct (conns s c); sd_live : sgone (csubs (cv s) i) = false;
  sd_task : serve s c i k; sd_sh : SH i k;
  sd_conn : conns (fst g) c = tx k; sd_inst : insts (fst g) i = ty k; sd_cv : cv (fst g) = ts k; sd_out : snd g = to k }.

Lemma served_intro s c i k nx ms : WF s -> cur (conns s c) = Some i -> serve s c i k ->
  served s c ({| Core.cv := ts k; Core.conns := Core.set_conn (conns s) c (tx k); Core.insts := Core.set_inst (insts s) i (ty k);
                 Core.next := nx; Core.mqsub := ms; Core.getreq := getreq s |}, to k) i k.
Proof.
  intros Hw Hc Hs. destruct (w_cur _ Hw c i Hc) as (_&_&Hg&Hd). constructor; cbn [fst snd Core.cv Core.conns Core.insts];
    rewrite ?set_conn_eq, ?set_inst_eq; auto. apply (sh_serve s c); assumption.
Qed.

(* A grant of the worker of an open connection leaves the connection's subscription alone (empty queue; unsubscribe request or
   token without a subscription; access answer or queue item of a subscription given up before), or creates it on a first
   subscribe request, or serves it. *)
Lemma grant_cases s c : CInv (cv s) -> WF s -> disc (conns s c) = false ->
  let g := step s (Core.GrantConn upd c) in
  (same_on c s (fst g) /\ forall L, fold_left (lstep c) (snd g) L = L) \/
  (cur (conns s c) = None /\ cur (conns (fst g) c) = Some (next s) /\ direct (conns (fst g) c) = 1 /\
   pend (insts (fst g) (next s)) = 1 /\ forall L, fold_left (lstep c) (snd g) L = L) \/
  exists i k, served s c g i k.
Proof.
  intros Hinv Hw Hd. pose proof Hw as [W1 W2 _ W4 W5 _]. cbv zeta.
  assert (Hlive : forall i q, cqueue (conns s c) = QAccess i :: q \/ cqueue (conns s c) = QSub i :: q ->
            sgone (csubs (cv s) i) = false -> cur (conns s c) = Some i).
  { intros i q E Hg. assert (X : i < next s /\ owner (insts s i) = c) by (destruct E as [E|E]; [apply (W4 c (QAccess i))|apply (W4 c (QSub i))]; rewrite E; left; reflexivity).
    destruct X as [Hi <-]. apply W2; assumption. }
  assert (Hq : cqueue (conns s c) = [] \/ cqueue (conns s c) <> []) by (destruct (cqueue (conns s c)); [left; reflexivity|right; discriminate]).
  destruct Hq as [Hq|Hq]; [left; rewrite step_conn_empty by exact Hq; split; [apply same_on_intro; auto|reflexivity]|].
  rewrite step_conn by exact Hq.
  destruct (ct_spec s c) as [Eq|id q Eq Ec|id q i Eq Ec|id cnt q i Eq Ec|id cnt q Eq Ec|t q i Eq Ec|t q Eq Ec|i q Eq Eg|i q Eq Eg|i q Eq|q Eq].
  - contradiction.
  - right; left. unfold Core.load_access. cbn [Core.emit Core.act Core.sety Core.ty Core.tx Core.to ynew inflight fst snd Core.conns Core.insts].
    rewrite set_conn_eq, set_inst_eq. repeat split; auto. intros L. destruct (mqsub s); reflexivity.
  - right; right. do 2 eexists. apply served_intro; eauto using serve.
  - right; right. do 2 eexists. apply served_intro; eauto using serve.
  - left. split; [|reflexivity]. apply same_on_intro; cbn [fst Core.conns]; rewrite ?set_conn_eq; try reflexivity. congruence.
  - right; right. do 2 eexists. apply served_intro; eauto using serve.
  - left. split; [|reflexivity]. apply same_on_intro; cbn [fst Core.conns]; rewrite ?set_conn_eq; try reflexivity. congruence.
  - left. split; [|reflexivity]. apply same_on_intro; cbn [fst Core.conns]; rewrite ?set_conn_eq; try reflexivity.
    intros j _. cbn [Core.insts Core.ty]. rewrite set_inst_same. auto.
  - right; right. do 2 eexists. apply served_intro; eauto using serve.
  - destruct (sgone (csubs (cv s) i)) eqn:Eg.
    + left. destruct (body_sub_gone s c (conns s c) q i Hinv Eg) as (T1&T2&T3&_&T5). cbv zeta in *. rewrite T3. split; [|reflexivity].
      apply same_on_intro; cbn [fst Core.conns]; rewrite ?set_conn_eq, ?T1; try reflexivity.
      intros j Hj. cbn [Core.insts Core.cv]. rewrite T2, T5, set_inst_same. split; [reflexivity|].
      apply subs_other; [|discriminate]. cbn [tgt]. intros E. injection E as ->. destruct (W1 c j Hj) as (_&_&G&_). congruence.
    + right; right. do 2 eexists. apply served_intro; eauto using serve.
  - exfalso. rewrite (W5 c) in Hd; [discriminate|rewrite Eq; left; reflexivity].
Qed.

Notation no_bare_resp := (Core.no_bare_resp val upd app).

Section LedgerTask.
Variables (c i : nat) (L0 : ledger_).
Definition Lk (k : tk_) : ledger_ := fold_left (lstep c) (to k) L0.

Lemma Lk_emit k o : Lk (emit k o) = fold_left (lstep c) o (Lk k).
Proof. unfold Lk. cbn [Core.emit Core.to]. apply fold_left_app. Qed.
Lemma Lk_act k a : Lk (actk k a) = Lk k.
Proof. reflexivity. Qed.
Lemma Lk_sety k y : Lk (sety k y) = Lk k.
Proof. reflexivity. Qed.
Lemma Lk_setx k x : Lk (setx k x) = Lk k.
Proof. reflexivity. Qed.
Lemma ids_of_app l1 l2 : Core.ids_of (l1 ++ l2) = Core.ids_of l1 ++ Core.ids_of l2.
Proof. unfold Core.ids_of. apply flat_map_app. Qed.

Definition same_fields (k' k : tk_) : Prop :=
  ssent (csubs (ts k') i) = ssent (csubs (ts k) i) /\ sloaded (csubs (ts k') i) = sloaded (csubs (ts k) i) /\
  ssval (csubs (ts k') i) = ssval (csubs (ts k) i).
Definition silent (dp : nat) (k k' : tk_) : Prop :=
  tx k' = tx k /\ Lk k' = Lk k /\ pend (ty k') = dp + pend (ty k) /\ same_fields k' k.

Lemma silent_load k b : silent (length (Core.ids_of [b])) k (load_access c i k b).
Proof.
  unfold Core.load_access. cbv zeta. unfold silent, same_fields, pend.
  destruct (inflight (ty k)); cbn [Core.emit Core.sety Core.ts Core.tx Core.ty Core.upd_y acb rcb];
    rewrite ?Lk_emit, ids_of_app, app_length; repeat split; lia.
Qed.
Lemma silent_hreacc k : silent 0 k (handle_reaccess c i k).
Proof.
  unfold Core.handle_reaccess. cbv zeta. cbn [Core.sety Core.tx]. destruct (Nat.eqb (direct (tx k)) 0).
  - unfold silent, pend. cbn [Core.sety Core.ty Core.upd_y acb rcb]. repeat split.
  - match goal with |- context [load_access c i ?K AVal] => destruct (silent_load K AVal) as (A&B&C&D1&D2&D3) end.
    destruct (startq_sub (ts k) i) as (S1&S2&S3&_). cbn zeta in *. cbn [Core.act Core.sety Core.ts] in D1, D2, D3.
    unfold silent, same_fields. rewrite A, B, C, D1, D2, D3, S1, S2, S3. repeat split.
Qed.
Lemma silent_reacc k : silent 0 k (reaccess c i k).
Proof.
  unfold Core.reaccess. destruct (gone_ i k); [|destruct (flag_ i k); [|apply silent_hreacc]];
    unfold silent, pend; cbn [Core.sety Core.ty Core.upd_y acb rcb]; repeat split.
Qed.

Lemma cnt_respond k ids : lcnt_ (Lk (respond c i k ids)) = lcnt_ (Lk k) + length ids /\ pend (ty (respond c i k ids)) = pend (ty k).
Proof.
  unfold Core.respond. destruct ids as [|id r]; [split; [cbn; lia|reflexivity]|]. cbv zeta.
  rewrite Lk_emit, fold_resp_none. cbn [Core.lcnt Core.emit Core.ty length].
  destruct (sent_ i k).
  - rewrite Lk_emit. cbn [fold_left Core.lstep]. rewrite Nat.eqb_refl. cbn [Core.lcnt Core.emit Core.ty]. split; [lia|reflexivity].
  - cbn [Core.emit Core.ty]. destruct (reflag (ty k)).
    + match goal with |- context [handle_reaccess c i ?K] => destruct (silent_hreacc K) as (_&A&B&_) end.
      rewrite A, B, Lk_act, Lk_emit. cbn [fold_left Core.lstep]. rewrite Nat.eqb_refl. cbn [Core.lcnt]. split; [lia|reflexivity].
    + rewrite Lk_emit. unfold Core.drained. rewrite (proj1 (replay_o_ledger _ _ _ _)), Lk_act, Lk_emit.
      cbn [fold_left Core.lstep]. rewrite Nat.eqb_refl. cbn [Core.lcnt]. split; [lia|reflexivity].
Qed.
Lemma cnt_ready k id :
  lcnt_ (Lk (on_ready c i k id)) + pend (ty (on_ready c i k id)) = lcnt_ (Lk k) + pend (ty k) + 1.
Proof.
  unfold Core.on_ready. destruct (loaded_ i k).
  - destruct (cnt_respond k [id]) as [A B]. rewrite A, B. cbn [length]. lia.
  - cbv zeta. rewrite Lk_sety. unfold pend. cbn [Core.sety Core.ty Core.upd_y acb rcb]. rewrite app_length. cbn [length]. lia.
Qed.
Lemma cnt_unqueue k : lcnt_ (Lk (unqueue_reaccess c i k)) = lcnt_ (Lk k) /\ pend (ty (unqueue_reaccess c i k)) = pend (ty k).
Proof.
  unfold Core.unqueue_reaccess. cbv zeta.
  match goal with |- context [if gone_ i ?K then _ else _] => destruct (gone_ i K) end; [split; reflexivity|].
  match goal with |- context [if reflag ?y then _ else _] => destruct (reflag y) end.
  - match goal with |- context [handle_reaccess c i ?K] => destruct (silent_hreacc K) as (_&A&B&_) end. rewrite A, B. split; reflexivity.
  - rewrite Lk_emit. unfold Core.drained. rewrite (proj1 (replay_o_ledger _ _ _ _)). split; reflexivity.
Qed.

(* the count: [n] requests are in hand (taken from the waiting lists, not yet answered or put back) *)
Definition JC (b : bool) (n : nat) (k : tk_) : Prop :=
  (cur (tx k) = Some i -> if b then direct (tx k) = lcnt_ (Lk k) + pend (ty k) + n else direct (tx k) <= lcnt_ (Lk k) + pend (ty k) + n) /\
  (cur (tx k) = None -> b = true -> lcnt_ (Lk k) = 0).

(* a handler that leaves the connection's record alone answers or puts back [dl] of the requests in hand *)
Lemma jc_mild b n dl k k' : ext true c i k k' ->
  lcnt_ (Lk k') + pend (ty k') = lcnt_ (Lk k) + pend (ty k) + dl ->
  (cur (tx k) = None -> lcnt_ (Lk k') = lcnt_ (Lk k)) ->
  JC b (dl + n) k -> JC b n k'.
Proof.
  intros He Hp Hn [J1 J2]. unfold JC. rewrite (e_tx _ _ _ _ _ He eq_refl). split.
  - intros Hc. specialize (J1 Hc). destruct b; lia.
  - intros Hc Hb. rewrite (Hn Hc). auto.
Qed.
Lemma jc_silent b n dp k k' : silent dp k k' -> JC b (dp + n) k -> JC b n k'.
Proof.
  intros (A&B&C&_) [J1 J2]. unfold JC. rewrite A, B, C. split; [|exact J2]. intros Hc. specialize (J1 Hc). destruct b; lia.
Qed.
Lemma jc_unqueue b n k : JC b n k -> JC b n (unqueue_reaccess c i k).
Proof.
  destruct (cnt_unqueue k) as [A B]. apply (jc_mild b n 0); [apply x_unqueue|rewrite A, B; lia|intros _; exact A].
Qed.
Lemma jc_respond b n k ids : cur (tx k) = Some i -> JC b (length ids + n) k -> JC b n (respond c i k ids).
Proof.
  intros Hc. destruct (cnt_respond k ids) as [A B]. apply jc_mild; [apply x_respond, ext_refl|rewrite A, B; lia|congruence].
Qed.
Lemma jc_ready b n k id : cur (tx k) = Some i -> JC b (1 + n) k -> JC b n (on_ready c i k id).
Proof. intros Hc. apply jc_mild; [apply x_ready|apply cnt_ready|congruence]. Qed.

Lemma jc_emit b n k o : (forall L, lcnt_ (fold_left (lstep c) o L) = lcnt_ L) -> JC b n k -> JC b n (emit k o).
Proof. intros Ho. unfold JC. rewrite Lk_emit, Ho. cbn [Core.emit Core.tx Core.ty]. auto. Qed.
(* when the last count goes the subscription is disposed, whatever is in hand *)
Lemma jc_remove b n n' m k : SH i k -> JC b (m + n) k -> (0 < direct (tx k) - m -> n' = n) -> JC b n' (remove_direct i k m).
Proof.
  intros Hsh [J1 J2] Hn. pose proof (sh_remove i k m Hsh) as Hsh'. destruct (remove_direct_spec i k m) as (A&B&C). cbv zeta in A, B, C.
  unfold SH in Hsh'. unfold JC, Lk. rewrite A, B in *. fold (Lk k). destruct Hsh as [(_&Hc&_)|(_&Hc&_)].
  - specialize (J1 Hc). split.
    + intros Hc'. destruct C as [C|(_&C&_)]; [congruence|]. destruct Hsh' as [(_&_&D')|(_&C'&_)]; [|congruence].
      rewrite C, (Hn D'). destruct b; lia.
    + intros Hc' Hb. destruct Hsh' as [(_&C'&_)|(_&_&D')]; [congruence|]. subst b. lia.
  - split; [|intros _; exact (J2 Hc)]. destruct C as [C|(_&_&C)]; congruence.
Qed.
Lemma jc_unsubd b n k : SH i k -> JC b n k -> JC b n (unsubscribe_direct c i k).
Proof.
  intros Hsh HJ. unfold Core.unsubscribe_direct. destruct (Nat.ltb_spec 0 (direct (tx k))) as [Hd|Hd]; [|exact HJ].
  pose proof (sh_remove i k (direct (tx k)) Hsh) as Hsh'. destruct (remove_direct_spec i k (direct (tx k))) as (_&B&_). cbv zeta in B.
  destruct Hsh' as [(_&_&D')|(_&C'&_)]; [lia|].
  split; cbn [Core.emit Core.tx]; [congruence|]. intros _ _. rewrite Lk_emit. cbn [fold_left Core.lstep]. rewrite Nat.eqb_refl. reflexivity.
Qed.
Lemma jc_run_cb b n g k bb : SH i k -> JC b (length (Core.ids_of [bb]) + n) k -> JC b n (run_cb c i g k bb).
Proof.
  intros Hsh HJ. unfold Core.run_cb. destruct bb as [id|].
  - destruct g; [|apply (jc_remove b n n 1); [exact Hsh|apply jc_emit; [reflexivity|exact HJ]|reflexivity]].
    destruct Hsh as [(G&C&_)|(G&C&_)]; rewrite G; [apply jc_ready; assumption|].
    destruct HJ as [_ J2]. split; [congruence|exact J2].
  - apply jc_unqueue. destruct g; [exact HJ|apply jc_unsubd; assumption].
Qed.
Lemma jc_run_cbs b g l : forall n k, SH i k -> JC b (length (Core.ids_of l) + n) k -> JC b n (fold_left (run_cb c i g) l k).
Proof.
  induction l as [|bb l IH]; intros n k Hsh HJ; cbn [fold_left]; [exact HJ|].
  change (bb :: l) with ([bb] ++ l) in HJ. rewrite ids_of_app, app_length, <- Nat.add_assoc in HJ.
  apply IH; [apply sh_run_cb, Hsh|apply jc_run_cb; assumption].
Qed.

(* the copy: the client that holds a subscription has the resource as the subscription has it, provided it has never been
   answered with an empty resource set while it held none *)
Definition NB (lo : list out_) : Prop :=
  forall pre id post, lo = pre ++ OResp c id None :: post -> 0 < lcnt_ (fold_left (lstep c) pre L0).
Definition JVB (k : tk_) : Prop :=
  cur (tx k) = Some i -> 0 < lcnt_ (Lk k) ->
  ssent (csubs (ts k) i) = true /\ sloaded (csubs (ts k) i) = true /\ lcopy_ (Lk k) = Some (ssval (csubs (ts k) i)).
Definition JV (k : tk_) : Prop := CInv (ts k) /\ (NB (to k) -> JVB k).

Lemma nb_prefix l1 l2 : NB (l1 ++ l2) -> NB l1.
Proof. intros H pre id post E. apply (H pre id (post ++ l2)). rewrite E, <- app_assoc. reflexivity. Qed.

(* along a handler: the Conv invariant is kept, and the premise on the frames sent so far held before it *)
Lemma jv_ext m k k' : ext m c i k k' -> JV k -> (NB (to k') -> JVB k -> JVB k') -> JV k'.
Proof.
  intros [(la&_&A2&_) (lo&B1&_) _ _ _ _ _ _] [Hi HJ] H. split; [rewrite A2; apply acts_inv, Hi|].
  intros HNB. apply (H HNB), HJ. rewrite B1 in HNB. exact (nb_prefix _ _ HNB).
Qed.
Lemma jv_silent m dp k k' : ext m c i k k' -> silent dp k k' -> JV k -> JV k'.
Proof.
  intros He (E1&E2&_&A&B&C) H. apply (jv_ext m k); [exact He|exact H|]. intros _. unfold JVB. rewrite E1, E2, A, B, C. auto.
Qed.
Lemma jv_hreacc k : JV k -> JV (handle_reaccess c i k).
Proof. apply (jv_silent true 0); [apply x_hreacc|apply silent_hreacc]. Qed.
Lemma jv_reacc k : JV k -> JV (reaccess c i k).
Proof. apply (jv_silent true 0); [apply x_reacc|apply silent_reacc]. Qed.
Lemma jv_emit k o : (forall L, fold_left (lstep c) o L = L) -> JV k -> JV (emit k o).
Proof.
  intros Ho [Hi HJ]. split; [exact Hi|]. intros HNB. cbn [Core.emit Core.to] in HNB. apply nb_prefix in HNB.
  unfold JVB. rewrite Lk_emit, Ho. exact (HJ HNB).
Qed.

(* the response that carries the resource is the client's new copy; the events held back while loading follow it, unless a
   re-validation is due first; a response without the resource goes to a client that has it *)
Lemma jv_respond k ids : sloaded (csubs (ts k) i) = true -> JV k -> JV (respond c i k ids).
Proof.
  intros Hl H. apply (jv_ext true k); [apply x_respond, ext_refl|exact H|]. intros HNB HJ.
  unfold Core.respond, Core.sent_, Core.me in *. destruct ids as [|id r]; [exact HJ|]. cbv zeta in *.
  apply nb_prefix in HNB. intros Hc _. rewrite Lk_emit, fold_resp_none. cbn [Core.lcopy Core.emit Core.tx Core.ts] in Hc |- *.
  destruct (ssent (csubs (ts k) i)) eqn:Es.
  - cbn [Core.emit Core.to] in HNB. destruct (HJ Hc (HNB _ id [] eq_refl)) as (A&B&C).
    cbn [Core.emit Core.ts]. rewrite Lk_emit. cbn [fold_left Core.lstep]. rewrite Nat.eqb_refl. cbn [Core.lcopy]. auto.
  - cbn [Core.emit Core.ty Core.ts]. destruct (reflag (ty k)).
    + match goal with |- context [handle_reaccess c i ?K] => destruct (silent_hreacc K) as (_&E&_&F1&F2&F3) end.
      rewrite F1, F2, F3, E. cbn [Core.act Core.emit Core.ts]. destruct (respond_none_sub (ts k) i Hl Es) as (R1&R2&R3). cbn zeta in *.
      rewrite R1, R2, R3, Lk_act, Lk_emit. cbn [fold_left Core.lstep]. rewrite Nat.eqb_refl. cbn [Core.lcopy]. auto.
    + cbn [Core.act Core.emit Core.ts]. destruct (respond_all_sub (ts k) i Hl Es) as (R1&R2&R3&R4). cbn zeta in *.
      rewrite R1, R2, R4. repeat split. rewrite Lk_emit, Lk_act, Lk_emit. cbn [fold_left Core.lstep]. rewrite Nat.eqb_refl.
      unfold Core.drained. cbn [Core.emit Core.ts]. apply replay_o_ledger. reflexivity.
Qed.
Lemma jv_ready k id : JV k -> JV (on_ready c i k id).
Proof.
  intros H. unfold Core.on_ready, Core.loaded_, Core.me. destruct (sloaded (csubs (ts k) i)) eqn:El; [apply jv_respond; assumption|exact H].
Qed.
(* the events held back during a re-validation reach the client's copy *)
Lemma jv_unqueue k : JV k -> JV (unqueue_reaccess c i k).
Proof.
  intros H. pose proof H as [Hi HJ]. unfold Core.unqueue_reaccess. cbv zeta.
  match goal with |- context [if gone_ i ?K then _ else _] => destruct (gone_ i K) end; [exact H|].
  match goal with |- context [if reflag ?y then _ else _] => destruct (reflag y) end; [apply jv_hreacc; exact H|].
  split; [cbn [Core.emit Core.act Core.sety Core.ts]; apply cstep_inv, Hi|]. intros HNB.
  cbn [Core.emit Core.act Core.sety Core.to] in HNB. apply nb_prefix in HNB. specialize (HJ HNB). intros Hc.
  unfold Core.drained, Core.me. cbn [Core.emit Core.act Core.sety Core.ts Core.tx] in Hc |- *. rewrite Lk_emit, Lk_act, Lk_sety.
  destruct (replay_o_ledger c (seq_ (csubs (ts k) i)) (ssver (csubs (ts k) i), ssval (csubs (ts k) i)) (Lk k)) as [E1 E2].
  rewrite E1. intros Hp. destruct (HJ Hc Hp) as (A&B&C).
  destruct (sflag (csubs (ts k) i)) eqn:Ef.
  - destruct (unqueue_all_sub (ts k) i B A Ef) as (R1&R2&R3&R4). cbn zeta in *. rewrite R1, R2, R4. auto.
  - rewrite unqueue_noop by (rewrite Ef; destruct (sloaded _), (ssent _); reflexivity).
    rewrite (Conv.i8 _ _ _ _ Hi i Ef). cbn [Core.replay_o fold_left]. auto.
Qed.
Lemma jv_remove k n : JV k -> JV (remove_direct i k n).
Proof.
  intros H. apply (jv_ext false k); [apply x_remove, ext_refl|exact H|]. intros _ HJ Hc.
  destruct (remove_direct_spec i k n) as (A&_&[C|(C1&_&C2)]); [congruence|]. cbv zeta in A.
  unfold Lk. rewrite A, C1. apply HJ. rewrite <- C2. exact Hc.
Qed.
Lemma jv_unsubd k : JV k -> JV (unsubscribe_direct c i k).
Proof.
  intros H. unfold Core.unsubscribe_direct. destruct (Nat.ltb 0 (direct (tx k))); [|exact H].
  apply (jv_ext false k); [apply x_emit; [apply x_remove, ext_refl|repeat constructor]|exact H|]. intros _ _ _.
  rewrite Lk_emit. cbn [fold_left Core.lstep]. rewrite Nat.eqb_refl. cbn [Core.lcnt]. lia.
Qed.
Lemma jv_run_cb g k b : JV k -> JV (run_cb c i g k b).
Proof.
  intros H. unfold Core.run_cb. destruct b as [id|].
  - destruct g; [destruct (gone_ i k); [exact H|apply jv_ready, H]|]. apply jv_remove, jv_emit; [reflexivity|exact H].
  - apply jv_unqueue. destruct g; [exact H|apply jv_unsubd, H].
Qed.
Lemma jv_run_cbs g l : forall k, JV k -> JV (fold_left (run_cb c i g) l k).
Proof. exact (fold_keeps JV (run_cb c i g) (jv_run_cb g) l). Qed.
End LedgerTask.

(* [b = true]: the equation, which needs no_underflow; [b = false]: the inequality, which needs no premise *)
Definition LGC (b : bool) (c : nat) (s : st_) (L : ledger_) : Prop :=
  (forall i, cur (conns s c) = Some i ->
     if b then direct (conns s c) = lcnt_ L + pend (insts s i) else direct (conns s c) <= lcnt_ L + pend (insts s i)) /\
  (cur (conns s c) = None -> b = true -> lcnt_ L = 0).
Definition LGV (c : nat) (s : st_) (L : ledger_) : Prop :=
  forall i, cur (conns s c) = Some i -> 0 < lcnt_ L ->
    ssent (csubs (cv s) i) = true /\ sloaded (csubs (cv s) i) = true /\ lcopy_ L = Some (ssval (csubs (cv s) i)).

Lemma lgc_frame b c s s' L : same_on c s s' -> LGC b c s L -> LGC b c s' L.
Proof.
  intros (Ec&Ed&Hi) [L1 L2]. split; [|rewrite Ec; exact L2].
  intros i Hc. rewrite Ec in Hc. destruct (Hi i Hc) as (A&_). rewrite Ed, A. apply L1, Hc.
Qed.
Lemma lgv_frame c s s' L : same_on c s s' -> LGV c s L -> LGV c s' L.
Proof. intros (Ec&_&Hi) H i Hc Hp. rewrite Ec in Hc. destruct (Hi i Hc) as (_&A&B&C). rewrite A, B, C. apply H; assumption. Qed.

Section LedgerBodies.
Variables (s : st_) (c i : nat) (L : ledger_).
Notation x := (conns s c).
Hypotheses (Hinv : CInv (cv s)) (Hg : sgone (csubs (cv s) i) = false) (Hc : cur x = Some i) (Hd : 0 < direct x).

Lemma sh_start x' : cur x' = Some i -> 0 < direct x' -> SH i (K0 s x' (insts s i)).
Proof. intros C D. left. repeat split; assumption. Qed.

Variable b : bool.
Hypothesis HLC : LGC b c s L.

Lemma jc_start k n : to k = [] -> cur (tx k) = Some i -> direct (tx k) + pend (insts s i) = direct x + pend (ty k) + n -> JC c i L b n k.
Proof.
  intros T C D. destruct HLC as [L1 _]. specialize (L1 i Hc). split; [|congruence]. intros _.
  unfold Lk. rewrite T. cbn [fold_left]. destruct b; lia.
Qed.

Lemma jc_body_req id q : JC c i L b 0 (body_req s c x id q i).
Proof.
  assert (HJ : JC c i L b 1 (K0 s (Core.with_cd (Core.with_q x q) (Some i) (S (direct x))) (insts s i))) by (apply jc_start; cbn; auto; lia).
  unfold body_req. cbv zeta. destruct (acc (insts s i)) as [[|]|].
  - apply jc_ready; [reflexivity|exact HJ].
  - apply (jc_remove c i L b 0 0 1); [apply sh_start; cbn; auto; lia|apply jc_emit; [reflexivity|exact HJ]|reflexivity].
  - apply (jc_silent c i L b 0 _ _ _ (silent_load c i L _ _)), HJ.
Qed.
(* an acknowledged unsubscribe puts the count given up in hand; the requests that wait for a verdict are given up with the
   last count *)
Lemma jc_body_unsub id cnt q : (b = true -> 0 < cnt -> cnt <= direct x -> cnt <= lcnt_ L) -> JC c i L b 0 (body_unsub s c x id cnt q i).
Proof.
  intros Hnu. assert (H0 : SH i (K0 s (Core.with_q x q) (insts s i))) by (apply sh_start; assumption).
  unfold body_unsub. cbv zeta. destruct (Nat.eqb_spec cnt 0) as [E0|E0]; [apply jc_emit; [reflexivity|apply jc_start; cbn; auto]|].
  destruct (Nat.leb_spec cnt (direct x)) as [Hle|Hgt]; [|apply jc_emit; [reflexivity|apply jc_start; cbn; auto]].
  assert (HJ : forall y n, pend (insts s i) = pend y + n ->
            JC c i L b (cnt + n) (sety (emit (K0 s (Core.with_q x q) (insts s i)) [OAck c id cnt]) y)).
  { intros y n E. destruct HLC as [L1 _]. specialize (L1 i Hc). split; [|cbn; congruence]. intros _.
    unfold Lk. cbn [Core.sety Core.emit Core.to Core.tx Core.ty Core.with_q direct List.app fold_left Core.lstep].
    rewrite Nat.eqb_refl. cbn [Core.lcnt]. destruct b; [specialize (Hnu eq_refl); lia|lia]. }
  destruct (Nat.eqb_spec (direct x - cnt) 0) as [Ez|Ez].
  - apply (jc_remove c i L b (length (Core.ids_of (acb (insts s i)))) 0 cnt); [exact H0| |cbn; lia].
    apply HJ. unfold pend. cbn [Core.emit Core.ty Core.upd_y acb rcb Core.ids_of flat_map length]. lia.
  - apply (jc_remove c i L b 0 0 cnt); [exact H0|apply (HJ (insts s i) 0); lia|reflexivity].
Qed.
Lemma jc_body_access q : JC c i L b 0 (body_access s c x q i).
Proof.
  unfold body_access. cbv zeta. destruct (ans (insts s i)) as [g|]; [|apply jc_start; cbn; auto].
  apply jc_run_cbs; [apply sh_start; assumption|]. apply jc_start; [reflexivity|exact Hc|].
  unfold pend. cbn [Core.sety Core.tx Core.ty Core.with_q direct Core.upd_y acb rcb Core.ids_of flat_map length]. lia.
Qed.
Lemma jc_body_sub q : JC c i L b 0 (body_sub s c x q i).
Proof.
  assert (HJ : forall y n, pend (insts s i) = pend y + n ->
            JC c i L b n (sety (actk (K0 s (Core.with_q x q) (insts s i)) (Conv.RunC upd i)) y)).
  { intros y n E. apply jc_start; [reflexivity|exact Hc|]. cbn [Core.sety Core.act Core.tx Core.ty Core.with_q direct]. lia. }
  unfold body_sub. cbv zeta. destruct (scq (csubs (cv s) i)) as [|[|e|] q'].
  - apply (HJ (insts s i) 0). lia.
  - rewrite Hg. apply jc_respond; [exact Hc|]. apply HJ. unfold pend. cbn [Core.act Core.ty Core.upd_y acb rcb length]. lia.
  - apply jc_emit; [|apply (HJ (insts s i) 0); lia]. intros L'. destruct (_ && _); [apply proc_o_ledger|reflexivity].
  - apply (jc_silent c i L b 0 _ _ _ (silent_reacc c i L _)), (HJ (insts s i)). lia.
Qed.

Lemma jc_serve k : serve s c i k -> (b = true -> forall id n, to k = [OAck c id n] -> n <= lcnt_ L) -> JC c i L b 0 k.
Proof.
  intros [id q|id cnt q|t q|q|q] Hnu.
  - apply jc_body_req.
  - apply jc_body_unsub. intros Hb Hpos Hle. apply (Hnu Hb id). destruct (body_unsub_spec s c x id cnt q i) as [A _]. rewrite A.
    destruct (Nat.eqb_spec cnt 0); [lia|]. destruct (Nat.leb_spec cnt (direct x)); [reflexivity|lia].
  - assert (HJ : JC c i L b 0 (K0 s (xtok x q t) (insts s i))) by (apply jc_start; cbn; auto).
    destruct (tokset x); [apply (jc_silent c i L b 0 _ _ _ (silent_reacc c i L _))|]; exact HJ.
  - apply jc_body_access.
  - apply jc_body_sub.
Qed.

Hypothesis HLV : LGV c s L.

Lemma jv_start x' : JV c i L (K0 s x' (insts s i)).
Proof. split; [exact Hinv|]. intros _ _ Hp. exact (HLV i Hc Hp). Qed.

Lemma jv_body_req id q : JV c i L (body_req s c x id q i).
Proof.
  unfold body_req. cbv zeta. destruct (acc (insts s i)) as [[|]|].
  - apply jv_ready, jv_start.
  - apply jv_remove, jv_emit; [reflexivity|apply jv_start].
  - apply (jv_silent c i L true _ _ _ (x_load _ _ _ _ _) (silent_load c i L _ _)), jv_start.
Qed.
(* an acknowledged unsubscribe: the client drops its copy with its last subscription *)
Lemma jv_body_unsub id cnt q : JV c i L (body_unsub s c x id cnt q i).
Proof.
  unfold body_unsub. cbv zeta. destruct (Nat.eqb cnt 0); [apply jv_emit; [reflexivity|apply jv_start]|].
  destruct (Nat.leb cnt (direct x)); [|apply jv_emit; [reflexivity|apply jv_start]].
  apply jv_remove.
  assert (H1 : JV c i L (emit (K0 s (Core.with_q x q) (insts s i)) [OAck c id cnt])).
  { split; [exact Hinv|]. intros _ _. rewrite Lk_emit. unfold Lk. cbn [Core.to Core.emit Core.tx Core.ts fold_left Core.lstep].
    rewrite Nat.eqb_refl. cbn [Core.lcnt Core.lcopy]. intros Hp. destruct (HLV i Hc) as (A&B&C); [lia|]. repeat split; auto.
    destruct (Nat.eqb_spec (lcnt_ L - cnt) 0); [lia|exact C]. }
  destruct (Nat.eqb (direct x - cnt) 0); exact H1.
Qed.
Lemma jv_body_access q : JV c i L (body_access s c x q i).
Proof.
  unfold body_access. cbv zeta. destruct (ans (insts s i)) as [g|]; [|apply jv_start]. apply jv_run_cbs, jv_start.
Qed.
(* an item of the subscription's queue: an event the client is sent is applied to both copies *)
Lemma jv_body_sub q : JV c i L (body_sub s c x q i).
Proof.
  set (K := Core.Build_tk val upd (cstep (cv s) (Conv.RunC upd i)) [Conv.RunC upd i] (Core.with_q x q)).
  assert (HJ : forall y o, JVB c i L (K y o) -> JV c i L (K y o)) by (intros y o H; split; [apply cstep_inv, Hinv|intros _; exact H]).
  subst K. unfold body_sub. cbv zeta. destruct (scq (csubs (cv s) i)) as [|[|e|] q'] eqn:Ecq.
  - apply HJ. unfold JVB, Lk. cbn [Core.tx Core.ts Core.to fold_left]. rewrite (runc_nil _ _ Ecq). intros _. apply HLV, Hc.
  - rewrite Hg. destruct (runc_loaded_fields _ _ _ Ecq Hg) as (F1&_). apply jv_respond; [exact F1|]. apply HJ.
    intros _ Hp. destruct (HLV i Hc Hp) as (_&B&_). rewrite (loaded_head _ _ _ Hinv Ecq) in B. discriminate.
  - apply HJ. unfold JVB, Lk. cbn [Core.tx Core.ts Core.to Core.act List.app]. intros _.
    destruct (runc_event_fields _ _ _ _ Ecq) as (F1&F2&F3&F4). cbn zeta in *. rewrite F1, F2.
    destruct (sloaded (csubs (cv s) i) && negb (sflag (csubs (cv s) i))) eqn:Ef.
    + destruct (F3 eq_refl) as [_ F6]. rewrite F6.
      destruct (proc_o_ledger c (ssver (csubs (cv s) i), ssval (csubs (cv s) i)) e L) as [E1 E2]. rewrite E1.
      intros Hp. destruct (HLV i Hc Hp) as (A&B&C). auto.
    + destruct (F4 eq_refl) as [_ F6]. rewrite F6. apply HLV, Hc.
  - apply jv_reacc, HJ. unfold JVB, Lk. cbn [Core.tx Core.ts Core.to fold_left]. intros _.
    destruct (runc_reacc_fields _ _ _ Ecq) as (F1&F2&_&F4&_). cbn zeta in *. rewrite F1, F2, F4. apply HLV, Hc.
Qed.

Lemma jv_serve k : serve s c i k -> JV c i L k.
Proof.
  intros [id q|id cnt q|t q|q|q].
  - apply jv_body_req.
  - apply jv_body_unsub.
  - destruct (tokset x); [apply jv_reacc|]; apply jv_start.
  - apply jv_body_access.
  - apply jv_body_sub.
Qed.
End LedgerBodies.

Lemma lgc_grant b c s L : CInv (cv s) -> WF s -> disc (conns s c) = false -> LGC b c s L ->
  let g := step s (Core.GrantConn upd c) in
  (b = true -> forall id n, snd g = [OAck c id n] -> n <= lcnt_ L) -> LGC b c (fst g) (fold_left (lstep c) (snd g) L).
Proof.
  intros Hinv Hw Hd HL. cbv zeta. intros Hnu.
  destruct (grant_cases s c Hinv Hw Hd) as [(A&B)|[(Ec&A&B&C&D)|(i&k&[Ec Hdir Hg Hs Hsh Ex Ey _ Eo])]].
  - rewrite B. exact (lgc_frame _ _ _ _ _ A HL).
  - rewrite D. destruct HL as [_ L2]. split; [|congruence]. intros i Hc. rewrite A in Hc. injection Hc as <-.
    rewrite B, C. destruct b; [rewrite (L2 Ec eq_refl); reflexivity|lia].
  - rewrite Eo in *. assert (HJ : JC c i L b 0 k) by (apply (jc_serve s c i L); assumption). destruct HJ as [J1 J2]. unfold LGC. rewrite Ex. split; [|exact J2].
    intros i' Hc. destruct Hsh as [(_&C&_)|(_&C&_)]; [|congruence]. rewrite C in Hc. injection Hc as <-.
    rewrite Ey. specialize (J1 C). rewrite Nat.add_0_r in J1. exact J1.
Qed.

Lemma nu_prefix c outs o : no_underflow c (outs ++ o) -> no_underflow c outs.
Proof. intros H pre id k post E. apply (H pre id k (post ++ o)). rewrite E, <- app_assoc. reflexivity. Qed.

Lemma lgc_exec b t ops c :
  let s := fst (exec t ops) in let outs := snd (exec t ops) in
  disc (conns s c) = false -> (b = true -> no_underflow c outs) -> LGC b c s (client c outs).
Proof.
  revert ops. apply (ledger_exec c t (fun outs => b = true -> no_underflow c outs) (LGC b c)).
  - intros l1 l2 H Hb. exact (nu_prefix _ _ _ (H Hb)).
  - split; cbn; [discriminate|reflexivity].
  - intros s s' L. apply lgc_frame.
  - intros ops s outs g Hd Hnu HL. apply lgc_grant; [apply core_conv_inv|apply wf_exec|exact Hd|exact HL|].
    intros Hb id k E. apply (Hnu Hb outs id k []). unfold g. rewrite E. reflexivity.
Qed.

Theorem core_direct_count : forall t ops c,
  let s := fst (exec t ops) in let outs := snd (exec t ops) in
  Core.disc (conns s c) = false -> no_underflow c outs ->
  Core.direct (conns s c) = Core.lcnt val (client c outs) + Core.pending val upd s c.
Proof.
  intros t ops c. cbv zeta. intros Hd Hnu. destruct (lgc_exec true t ops c Hd (fun _ => Hnu)) as [L1 L2].
  unfold Core.pending. destruct (cur (conns (fst (exec t ops)) c)) as [i|] eqn:Ec.
  - exact (L1 i eq_refl).
  - rewrite (L2 eq_refl eq_refl), (w_dir _ (wf_exec t ops) c Ec). reflexivity.
Qed.

Theorem core_direct_le : forall t ops c,
  let s := fst (exec t ops) in let outs := snd (exec t ops) in
  Core.disc (conns s c) = false ->
  Core.direct (conns s c) <= Core.lcnt val (client c outs) + Core.pending val upd s c.
Proof.
  intros t ops c. cbv zeta. intros Hd. destruct (lgc_exec false t ops c Hd) as [L1 _]; [discriminate|].
  unfold Core.pending. destruct (cur (conns (fst (exec t ops)) c)) as [i|] eqn:Ec.
  - exact (L1 i eq_refl).
  - rewrite (w_dir _ (wf_exec t ops) c Ec). lia.
Qed.

Lemma lgv_grant c s L : CInv (cv s) -> WF s -> disc (conns s c) = false -> LGV c s L -> (cur (conns s c) = None -> lcnt_ L = 0) ->
  let g := step s (Core.GrantConn upd c) in NB c L (snd g) -> LGV c (fst g) (fold_left (lstep c) (snd g) L).
Proof.
  intros Hinv Hw Hd HL H0. cbv zeta. intros HNB.
  destruct (grant_cases s c Hinv Hw Hd) as [(A&B)|[(Ec&_&_&_&D)|(i&k&[Ec Hdir Hg Hs Hsh Ex _ Ev Eo])]].
  - rewrite B. exact (lgv_frame _ _ _ _ A HL).
  - rewrite D. intros i _ Hp. rewrite (H0 Ec) in Hp. inversion Hp.
  - rewrite Eo in *. assert (HJ : JV c i L k) by (apply (jv_serve s c i L); assumption). destruct HJ as [_ HJ]. intros i' Hc Hp. rewrite Ex in Hc. rewrite Ev.
    destruct Hsh as [(_&C&_)|(_&C&_)]; [|congruence]. rewrite C in Hc. injection Hc as <-. exact (HJ HNB C Hp).
Qed.

Lemma lgv_exec t ops c :
  let s := fst (exec t ops) in let outs := snd (exec t ops) in
  disc (conns s c) = false -> no_underflow c outs -> no_bare_resp c outs -> LGV c s (client c outs).
Proof.
  cbv zeta. intros Hd Hnu Hnb. pose proof (conj Hnu Hnb) as HQ. clear Hnu Hnb. revert ops Hd HQ.
  apply (ledger_exec c t (fun outs => no_underflow c outs /\ no_bare_resp c outs) (LGV c)).
  - intros l1 l2 [A B]. split; [exact (nu_prefix _ _ _ A)|].
    exact (nb_prefix c _ l1 l2 B).
  - intros i Hc. discriminate Hc.
  - intros s s' L. apply lgv_frame.
  - intros ops s outs g Hd [Hnu Hnb] HL. apply lgv_grant; [apply core_conv_inv|apply wf_exec|exact Hd|exact HL| |].
    + intros Ec. destruct (lgc_exec true t ops c Hd (fun _ => nu_prefix _ _ _ Hnu)) as [_ L2]. exact (L2 Ec eq_refl).
    + intros pre id post E. rewrite <- client_app. apply (Hnb (outs ++ pre) id post). unfold g. rewrite E, <- app_assoc. reflexivity.
Qed.

(* without the premise [no_bare_resp] the statement is false of this model: core_client_copy_without_premise_refuted below *)
Theorem core_client_copy : forall t ops c,
  let s := fst (exec t ops) in let outs := snd (exec t ops) in
  Core.disc (conns s c) = false -> no_underflow c outs -> no_bare_resp c outs -> 0 < Core.lcnt val (client c outs) ->
  exists i, Core.cur (conns s c) = Some i /\ Conv.sent val upd (csubs (cv s) i) = true /\
            Core.lcopy val (client c outs) = Some (Conv.sval val upd (csubs (cv s) i)).
Proof.
  intros t ops c. cbv zeta. intros Hd Hnu Hnb Hp. destruct (lgc_exec true t ops c Hd (fun _ => Hnu)) as [_ L2].
  pose proof (lgv_exec t ops c Hd Hnu Hnb) as HV. cbv zeta in HV.
  destruct (cur (conns (fst (exec t ops)) c)) as [i|] eqn:Ec; [|rewrite (L2 eq_refl eq_refl) in Hp; lia].
  exists i. destruct (HV i Ec Hp) as (A&_&C). auto.
Qed.

Theorem core_convergence : forall t ops c,
  let s := fst (exec t ops) in let outs := snd (exec t ops) in
  quiescent s -> Core.disc (conns s c) = false -> no_underflow c outs -> no_bare_resp c outs -> 0 < Core.lcnt val (client c outs) ->
  Core.lcopy val (client c outs) = Some (Conv.truth val upd (cv s)).
Proof.
  intros t ops c. cbv zeta. intros Hqs Hd Hnu Hnb Hp. pose proof Hqs as (Hq & Hcq & _).
  destruct (lgc_exec true t ops c Hd (fun _ => Hnu)) as [_ L2].
  pose proof (lgv_exec t ops c Hd Hnu Hnb) as HV. pose proof (core_conv_inv t ops) as Hinv.
  destruct (g_IJ_exec t ops) as [HI HJ]. cbv zeta in HV. set (s := fst (exec t ops)) in *.
  destruct (cur (conns s c)) as [i|] eqn:Ec; [|rewrite (L2 eq_refl eq_refl) in Hp; lia].
  destruct (HV i Ec Hp) as (A1&A2&A4). destruct (g_i_cur _ HI c i Ec) as (Hi&Ho&Hg).
  (* no re-validation is under way, so no event is held back *)
  destruct (core_quiescent_validated t ops c i Hqs Ec) as (Hrq&_).
  pose proof (g_i_live _ HI i Hi Hg) as V. rewrite A2, A1 in V. pose proof (g_v_flag _ _ _ _ _ _ _ V eq_refl eq_refl Hrq) as A3.
  assert (Hc0 : scq (csubs (cv s) i) = []).
  { pose proof (g_j_ql _ HJ i Hi) as Hql. rewrite Ho, Hcq in Hql. destruct (scq (csubs (cv s) i)); [reflexivity|cbn in Hql; lia]. }
  pose proof (Conv.i5 _ _ _ _ Hinv i A2) as H5. rewrite (Conv.i8 _ _ _ _ Hinv i A3), Hc0 in H5. cbn in H5.
  destruct (Conv.loaded_mem val upd app _ i Hinv A2) as [_ Hrl].
  pose proof (Conv.i1 _ _ _ _ Hinv) as H1. rewrite Hq, Hrl in H1. cbn in H1.
  destruct (Conv.answered val upd (cv s)); [|discriminate H1]. injection H1 as H1. injection H5 as _ H5.
  rewrite A4. congruence.
Qed.
End CoreProofs.

Print Assumptions run_exec.
Print Assumptions core_reachable_conv.
Print Assumptions core_conv_inv.
Print Assumptions core_get_once_under_subscription.
Print Assumptions core_revalidation_holds_events.
Print Assumptions core_token_triggers_revalidation.
Print Assumptions core_denied_revalidation_revokes.
Print Assumptions core_quiescent_validated.
Print Assumptions core_direct_count.
Print Assumptions core_direct_le.
Print Assumptions core_unsubscribe_outcome.
Print Assumptions core_client_copy.
Print Assumptions core_convergence.

(* subscribe twice, then unsubscribe one while both subscribe requests still wait for the access answer: the gateway's count
   drops to 1 although two requests are pending and the client holds nothing (finding KF-PENDING-DROPPED) *)
Definition refute_ops1 : list (Core.op nat) :=
  [Core.CSub nat 0 1; Core.GrantConn nat 0; Core.CSub nat 0 2; Core.GrantConn nat 0; Core.CUnsub nat 0 3 1; Core.GrantConn nat 0].
(* ... both requests are then answered (client holds 2, gateway counts 1), one more unsubscribe disposes the subscription
   while the client still counts 1; a later event never reaches it *)
Definition refute_ops3 : list (Core.op nat) :=
  refute_ops1 ++
  [Core.GrantEs nat; Core.MqGet nat; Core.GrantEs nat; Core.MqAccess nat 0 true; Core.GrantEs nat; Core.GrantConn nat 0; Core.GrantConn nat 0;
   Core.CUnsub nat 0 4 1; Core.GrantConn nat 0; Core.GrantEs nat; Core.MqEvent nat 5; Core.GrantEs nat].

Theorem core_direct_count_refuted :
  exists ops : list (Core.op nat),
    let s := fst (Core.exec nat nat Nat.add (fun u _ => Some u) 0 100 ops) in
    let outs := snd (Core.exec nat nat Nat.add (fun u _ => Some u) 0 100 ops) in
    Core.disc (Core.conns nat nat s 0) = false /\ Core.direct (Core.conns nat nat s 0) = 1 /\
    Core.lcnt nat (Core.client nat nat Nat.add 0 outs) = 0 /\ Core.pending nat nat s 0 = 2.
Proof. exists refute_ops1. vm_compute. repeat split. Qed.

Theorem core_convergence_refuted :
  exists ops : list (Core.op nat),
    let s := fst (Core.exec nat nat Nat.add (fun u _ => Some u) 0 100 ops) in
    let outs := snd (Core.exec nat nat Nat.add (fun u _ => Some u) 0 100 ops) in
    Core.quiescent nat nat s /\ Core.disc (Core.conns nat nat s 0) = false /\ 0 < Core.lcnt nat (Core.client nat nat Nat.add 0 outs) /\
    Core.lcopy nat (Core.client nat nat Nat.add 0 outs) <> Some (Conv.truth nat nat (Core.cv nat nat s)).
Proof.
  exists refute_ops3. cbn zeta. split; [|vm_compute; repeat split; try lia; discriminate].
  split; [vm_compute; reflexivity|]. split; [|split].
  - intros c. vm_compute. destruct c; reflexivity.
  - intros _. vm_compute. reflexivity.
  - intros i Hi. assert (E : i = 0) by (vm_compute in Hi; lia). subst i. vm_compute. reflexivity.
Qed.

(* core_client_copy and core_convergence need the premise [no_bare_resp]: a token event starts a re-validation of a
   subscription the client holds (count 1); a second subscribe request joins the waiting continuations; the client unsubscribes
   the one it holds (acknowledged: its count is 0, it drops its copy) but the gateway keeps the subscription for the waiting
   request; the re-validation is granted and the request is answered with an empty resource set, the resource counting as sent.
   No unsubscribe was acknowledged beyond what the client held, nothing is left to do, the client counts 1 and has no copy. *)
Definition copy_refute_ops : list (Core.op nat) :=
  [Core.CSub nat 0 1; Core.GrantConn nat 0; Core.GrantEs nat; Core.MqGet nat; Core.GrantEs nat; Core.MqAccess nat 0 true; Core.GrantEs nat;
   Core.GrantConn nat 0; Core.GrantConn nat 0;
   Core.ConnToken nat 0 7; Core.GrantConn nat 0; Core.ConnToken nat 0 8; Core.GrantConn nat 0;
   Core.CSub nat 0 2; Core.GrantConn nat 0; Core.CUnsub nat 0 3 1; Core.GrantConn nat 0;
   Core.MqAccess nat 0 true; Core.GrantEs nat; Core.GrantConn nat 0].

Theorem core_client_copy_without_premise_refuted :
  exists ops : list (Core.op nat),
    let s := fst (Core.exec nat nat Nat.add (fun u _ => Some u) 0 100 ops) in
    let outs := snd (Core.exec nat nat Nat.add (fun u _ => Some u) 0 100 ops) in
    Core.quiescent nat nat s /\ Core.disc (Core.conns nat nat s 0) = false /\ Core.no_underflow nat nat Nat.add 0 outs /\
    0 < Core.lcnt nat (Core.client nat nat Nat.add 0 outs) /\ Core.lcopy nat (Core.client nat nat Nat.add 0 outs) = None /\
    Conv.sent nat nat (Conv.subs nat nat (Core.cv nat nat s) 0) = true /\
    ~ no_bare_resp nat nat Nat.add 0 outs.
Proof.
  exists copy_refute_ops. cbn zeta.
  assert (Eo : snd (Core.exec nat nat Nat.add (fun u _ => Some u) 0 100 copy_refute_ops) =
               [Core.OMqSub nat nat; Core.OAccessReq nat nat 0 0 0; Core.OGetReq nat nat; Core.OResp nat nat 0 1 (Some 100);
                Core.OAccessReq nat nat 0 0 8; Core.OAck nat nat 0 3 1] ++ [Core.OResp nat nat 0 2 None]) by (vm_compute; reflexivity).
  split; [|split; [vm_compute; reflexivity|split; [|split; [vm_compute; lia|split; [vm_compute; reflexivity|split; [vm_compute; reflexivity|]]]]]].
  - split; [vm_compute; reflexivity|]. split; [|split].
    + intros c. vm_compute. destruct c; reflexivity.
    + intros _. vm_compute. reflexivity.
    + intros i Hi. assert (E : i = 0) by (vm_compute in Hi; lia). subst i. vm_compute. reflexivity.
  - (* the one acknowledgement follows the one response that carried the resource *)
    rewrite Eo. intros pre id k post E.
    do 7 (destruct pre as [|o pre]; [cbn in E; try discriminate E; try (injection E as <- <- <-; vm_compute; lia)|cbn in E; injection E as <- E]).
    destruct pre; discriminate E.
  - intros H. specialize (H _ _ _ Eo). vm_compute in H. lia.
Qed.

Print Assumptions core_direct_count_refuted.
Print Assumptions core_convergence_refuted.
Print Assumptions core_client_copy_without_premise_refuted.
