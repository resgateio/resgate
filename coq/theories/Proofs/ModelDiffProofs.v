(* Proofs about Pure/ModelDiff.v (processResetModel + handleEventChange's re-filter) over Base/Value.v.

   Three statements are false of the model as written, each refuted by a counterexample below; what holds instead
   is proved with suffix _partial:
     - `uniq m -> uniq (set_key k v m)` is false (set_key_not_uniq_counterexample): set_key keeps key-uniqueness
       only for a fresh key or on a key-sorted list. So `uniq props` and `uniq m` do not give `uniq m'` after
       apply_change (apply_change_client_uniq_counterexample), and apply_change_client_partial assumes `ksorted m`
       (its lookup half needs no hypothesis);
     - a VDelete value in the cached model `old` survives the reset, so applying `reset_props old new` to `old` need
       not give `new` (reset_converges_counterexample), and `reset_props old new = []` need not mean that `old` and
       `new` agree (reset_noop_iff_counterexample); reset_converges_partial and reset_noop_iff_partial assume that
       `old` holds no VDelete value. *)
From Coq Require Import List Arith Bool.
From RG Require Import Base.Value Pure.ModelDiff.
Import ListNotations.

Definition uniq (m : kv) := NoDup (keys m).

(* key-sorted association lists: the canonical form that set_key maintains *)
Fixpoint sorted (l : list nat) : Prop :=
  match l with
  | [] => True
  | x :: l' => (forall y, In y l' -> x < y) /\ sorted l'
  end.
Definition ksorted (m : kv) := sorted (keys m).

Lemma lookup_set : forall k k' v m,
  lookup k (set_key k' v m) = if Nat.eqb k k' then Some v else lookup k m.
Proof.
  intros k k' v m. induction m as [|[k2 v2] m IH]; cbn [set_key lookup].
  - reflexivity.
  - destruct (Nat.eqb_spec k' k2) as [<-|n]; cbn [lookup].
    + destruct (Nat.eqb k k'); reflexivity.
    + destruct (Nat.ltb k' k2); cbn [lookup]; [reflexivity|].
      rewrite IH. destruct (Nat.eqb_spec k k2) as [->|]; [|reflexivity].
      rewrite (proj2 (Nat.eqb_neq k2 k')) by auto. reflexivity.
Qed.

Lemma lookup_remove : forall k k' m,
  lookup k (remove_key k' m) = if Nat.eqb k k' then None else lookup k m.
Proof.
  intros k k' m. induction m as [|[k2 v2] m IH]; cbn [remove_key lookup].
  - destruct (Nat.eqb k k'); reflexivity.
  - destruct (Nat.eqb_spec k' k2) as [<-|n]; cbn [lookup]; rewrite IH.
    + destruct (Nat.eqb k k'); reflexivity.
    + destruct (Nat.eqb_spec k k2) as [->|]; [|reflexivity].
      rewrite (proj2 (Nat.eqb_neq k2 k')) by auto. reflexivity.
Qed.

Lemma lookup_None_iff : forall k m, lookup k m = None <-> ~ In k (keys m).
Proof.
  intros k m. unfold keys. induction m as [|[k' v'] m IH]; cbn [lookup map fst In].
  - split; [intros _ [] | reflexivity].
  - destruct (Nat.eqb_spec k k') as [->|n].
    + split; [discriminate | intros H; elim H; auto].
    + rewrite IH. split; [intros H [E|Hin]; auto | auto].
Qed.

Lemma has_key_false : forall k m, has_key k m = false -> lookup k m = None.
Proof.
  intros k m H. unfold has_key in H. destruct (lookup k m); [discriminate H | reflexivity].
Qed.

Lemma In_keys_set : forall x k v m, In x (keys (set_key k v m)) <-> k = x \/ In x (keys m).
Proof.
  intros x k v m. unfold keys. induction m as [|[k' v'] m IH]; cbn [set_key map fst In].
  - reflexivity.
  - destruct (Nat.eqb_spec k k') as [<-|n]; [|destruct (Nat.ltb k k')]; cbn [map fst In].
    + split; [auto | intros [H|H]; auto].
    + reflexivity.
    + rewrite IH. split; (intros [H|[H|H]]; auto).
Qed.

(* filter keeps both invariants; remove_key is a filter *)
Lemma In_keys_filter : forall (P : nat * value -> bool) x m,
  In x (keys (filter P m)) -> In x (keys m).
Proof.
  intros P x m H. apply in_map_iff in H as [p [E Hp]]. apply filter_In in Hp as [Hp _].
  subst x. apply in_map. exact Hp.
Qed.

Lemma uniq_filter : forall (P : nat * value -> bool) m, uniq m -> uniq (filter P m).
Proof.
  intros P m. unfold uniq, keys. induction m as [|p m IH]; cbn [filter map]; intros Hu; [exact Hu|].
  apply NoDup_cons_iff in Hu as [Hni Hnd]. destruct (P p); [|exact (IH Hnd)].
  cbn [map]. constructor; [|exact (IH Hnd)].
  intros Hin. apply Hni. exact (In_keys_filter P _ m Hin).
Qed.

Lemma ksorted_filter : forall (P : nat * value -> bool) m, ksorted m -> ksorted (filter P m).
Proof.
  intros P m. unfold ksorted, keys. induction m as [|p m IH]; cbn [filter map sorted]; [trivial|].
  intros [Hlt Hs]. destruct (P p); [|exact (IH Hs)].
  cbn [map sorted]. split; [|exact (IH Hs)].
  intros y Hy. apply Hlt. exact (In_keys_filter P y m Hy).
Qed.

Lemma remove_key_filter : forall k m,
  remove_key k m = filter (fun p => negb (Nat.eqb k (fst p))) m.
Proof.
  intros k m. induction m as [|[k' v'] m IH]; cbn [remove_key filter fst]; [reflexivity|].
  rewrite IH. destruct (Nat.eqb k k'); reflexivity.
Qed.

Lemma uniq_remove_key : forall k m, uniq m -> uniq (remove_key k m).
Proof. intros k m. rewrite remove_key_filter. apply uniq_filter. Qed.

Lemma ksorted_remove_key : forall k m, ksorted m -> ksorted (remove_key k m).
Proof. intros k m. rewrite remove_key_filter. apply ksorted_filter. Qed.

(* set_key keeps uniqueness when the key is fresh ... *)
Lemma uniq_set_key_fresh : forall k v m, uniq m -> lookup k m = None -> uniq (set_key k v m).
Proof.
  intros k v m Hu Hl. apply lookup_None_iff in Hl. revert Hu Hl. unfold uniq, keys.
  induction m as [|[k' v'] m IH]; cbn [set_key map fst In]; intros Hu Hl.
  - constructor; [exact Hl | constructor].
  - destruct (Nat.eqb_spec k k') as [->|n]; [elim Hl; auto|].
    destruct (Nat.ltb k k'); cbn [map fst].
    + constructor; [exact Hl | exact Hu].
    + apply NoDup_cons_iff in Hu as [Hni Hnd]. constructor; [|apply IH; auto].
      intros Hin. apply (In_keys_set k' k v m) in Hin as [E|Hin]; auto.
Qed.

(* ... but not in general: "uniq m -> uniq (set_key k v m)" is false *)
Example set_key_not_uniq_counterexample :
  uniq [(5, VPrim 0); (3, VPrim 0)] /\ ~ uniq (set_key 3 (VPrim 1) [(5, VPrim 0); (3, VPrim 0)]).
Proof.
  split.
  - unfold uniq. cbn. constructor.
    + intros [H|H]; [discriminate H | exact H].
    + constructor; [intros H; exact H | constructor].
  - intros H. vm_compute in H. apply NoDup_cons_iff in H as [Hni _].
    apply Hni. right. left. reflexivity.
Qed.

(* on key-sorted lists everything is preserved *)
Lemma ksorted_uniq : forall m, ksorted m -> uniq m.
Proof.
  intros m. unfold ksorted, uniq. induction (keys m) as [|x l IH]; intros H; constructor.
  - intros Hin. exact (Nat.lt_irrefl x (proj1 H x Hin)).
  - apply IH, H.
Qed.

Lemma ksorted_set_key : forall k v m, ksorted m -> ksorted (set_key k v m).
Proof.
  intros k v m. unfold ksorted, keys. induction m as [|[k' v'] m IH]; cbn [set_key map fst sorted].
  - intros _. split; [intros y [] | exact I].
  - intros [Hlt Hs].
    destruct (Nat.eqb_spec k k') as [<-|n]; [|destruct (Nat.ltb_spec k k') as [Hk|Hk]]; cbn [map fst sorted].
    + split; assumption.
    + split; [|split; assumption]. intros y [<-|Hy]; [exact Hk | exact (Nat.lt_trans _ _ _ Hk (Hlt y Hy))].
    + split; [|exact (IH Hs)].
      intros y Hy. apply (In_keys_set y k v m) in Hy as [<-|Hy]; [|exact (Hlt y Hy)].
      apply Nat.le_neq. auto.
Qed.

Lemma uniq_set_key_sorted : forall k v m, ksorted m -> uniq (set_key k v m).
Proof. intros k v m H. apply ksorted_uniq. apply ksorted_set_key. exact H. Qed.

Definition put (k : nat) (v : value) (m : kv) : kv :=
  match v with VDelete => remove_key k m | _ => set_key k v m end.

(* what a map holding `d` at a key shows there after a change event whose entry for that key is `o` *)
Definition upd (o : option value) (d : option value) : option value :=
  match o with
  | Some VDelete => None
  | Some v => Some v
  | None => d
  end.

Lemma upd_Some : forall v d, v <> VDelete -> upd (Some v) d = Some v.
Proof. intros v d H. destruct v; [reflexivity.. | elim H; reflexivity]. Qed.

Lemma lookup_put : forall k k' v m,
  lookup k (put k' v m) = upd (if Nat.eqb k k' then Some v else None) (lookup k m).
Proof.
  intros k k' v m. destruct v; cbn [put]; rewrite ?lookup_set, ?lookup_remove;
    destruct (Nat.eqb k k'); reflexivity.
Qed.

Lemma ksorted_put : forall k v m, ksorted m -> ksorted (put k v m).
Proof.
  intros k v m H. destruct v; cbn [put]; first [apply ksorted_set_key | apply ksorted_remove_key]; exact H.
Qed.

Lemma client_apply_cons : forall k v ps m, client_apply ((k, v) :: ps) m = put k v (client_apply ps m).
Proof. intros k v ps m. destruct v; reflexivity. Qed.

(* handleEventChange either applies the entry and keeps it in the event, or drops it because applying it
   would change nothing *)
Lemma apply_change_cons : forall k v ps m,
  let r := apply_change ps m in
  apply_change ((k, v) :: ps) m = ((k, v) :: fst r, put k v (snd r)) \/
  apply_change ((k, v) :: ps) m = r /\ upd (Some v) (lookup k (snd r)) = lookup k (snd r).
Proof.
  intros k v ps m. cbn [apply_change]. destruct (apply_change ps m) as [eff m1]. cbn [fst snd].
  unfold has_key. destruct v, (lookup k m1) as [ov|]; cbn [put upd]; auto.
  all: destruct (veq ov _) eqn:Ev; auto.
  all: apply veq_eq in Ev; subst ov; auto.
Qed.

(* the lookup half needs no hypothesis at all *)
Lemma apply_change_client_lookup : forall props m k,
  lookup k (client_apply (fst (apply_change props m)) m) = lookup k (snd (apply_change props m)).
Proof.
  intros props m k. induction props as [|[k0 v] ps IH]; [reflexivity|].
  destruct (apply_change_cons k0 v ps m) as [-> | [-> _]]; [|exact IH].
  cbn [fst snd]. rewrite client_apply_cons, !lookup_put, IH. reflexivity.
Qed.

Lemma apply_change_ksorted : forall props m, ksorted m -> ksorted (snd (apply_change props m)).
Proof.
  intros props m Hs. induction props as [|[k0 v] ps IH]; [exact Hs|].
  destruct (apply_change_cons k0 v ps m) as [-> | [-> _]]; [|exact IH].
  apply ksorted_put. exact IH.
Qed.

(* With only `uniq props` and `uniq m` in place of `ksorted m`, the `uniq m'` conjunct of
   apply_change_client_partial fails. *)
Example apply_change_client_uniq_counterexample :
  let props := [(3, VPrim 1)] in
  let m := [(5, VPrim 0); (3, VPrim 0)] in
  uniq props /\ uniq m /\ ~ uniq (snd (apply_change props m)).
Proof.
  cbv zeta. split; [|exact set_key_not_uniq_counterexample].
  unfold uniq. cbn. constructor; [intros H; exact H | constructor].
Qed.

(* Strongest true variant: the cached map is key-sorted (the canonical form of Value.v).
   `uniq props` is not needed. *)
Theorem apply_change_client_partial : forall props m, ksorted m ->
  let '(eff, m') := apply_change props m in
  (forall k, lookup k (client_apply eff m) = lookup k m') /\ ksorted m' /\ uniq m'.
Proof.
  intros props m Hs.
  pose proof (apply_change_client_lookup props m) as H1.
  pose proof (apply_change_ksorted props m Hs) as H2.
  destruct (apply_change props m) as [eff m'] eqn:E. cbn [fst snd] in H1, H2.
  split; [exact H1 | split; [exact H2 | apply ksorted_uniq; exact H2]].
Qed.

Theorem apply_change_client_lookup_only : forall props m,
  let '(eff, m') := apply_change props m in
  forall k, lookup k (client_apply eff m) = lookup k m'.
Proof.
  intros props m. pose proof (apply_change_client_lookup props m) as H1.
  destruct (apply_change props m) as [eff m'] eqn:E. exact H1.
Qed.

Lemma apply_change_lookup : forall props m k,
  lookup k (snd (apply_change props m)) = upd (lookup k props) (lookup k m).
Proof.
  intros props m k. induction props as [|[k0 v] ps IH]; [reflexivity|]. cbn [lookup].
  destruct (apply_change_cons k0 v ps m) as [-> | [-> H]]; cbn [snd].
  - rewrite lookup_put, IH. destruct (Nat.eqb k k0); [destruct v|]; reflexivity.
  - destruct (Nat.eqb_spec k k0) as [->|]; [|exact IH].
    rewrite <- H. destruct v; reflexivity.
Qed.

Definition step (p : kv) (k : nat) : kv := if has_key k p then p else set_key k VDelete p.
Definition keep (old : kv) : nat * value -> bool :=
  fun '(k, v) => match lookup k old with Some ov => negb (veq v ov) | None => true end.

Lemma reset_props_eq : forall old new,
  reset_props old new = filter (keep old) (fold_left step (keys old) new).
Proof. reflexivity. Qed.

Lemma lookup_step : forall p x k,
  lookup k (step p x) =
    match lookup k p with
    | Some v => Some v
    | None => if Nat.eqb k x then Some VDelete else None
    end.
Proof.
  intros p x k. unfold step, has_key. destruct (lookup x p) eqn:E; [|rewrite lookup_set].
  - destruct (lookup k p) eqn:E'; [reflexivity|].
    destruct (Nat.eqb_spec k x) as [->|]; [congruence | reflexivity].
  - destruct (Nat.eqb_spec k x) as [->|]; [rewrite E | destruct (lookup k p)]; reflexivity.
Qed.

Lemma fold_step_lookup : forall old p k,
  lookup k (fold_left step (keys old) p) =
    match lookup k p with
    | Some v => Some v
    | None => if has_key k old then Some VDelete else None
    end.
Proof.
  intros old p k. unfold keys, has_key. revert p.
  induction old as [|[x w] old IH]; intros p; cbn [map fst fold_left lookup].
  - destruct (lookup k p); reflexivity.
  - rewrite IH, lookup_step. destruct (lookup k p); [reflexivity|].
    destruct (Nat.eqb k x); reflexivity.
Qed.

Lemma fold_step_uniq : forall l p, uniq p -> uniq (fold_left step l p).
Proof.
  induction l as [|x l IH]; intros p Hu; cbn [fold_left].
  - exact Hu.
  - apply IH. unfold step. destruct (has_key x p) eqn:Eh.
    + exact Hu.
    + apply uniq_set_key_fresh; [exact Hu | apply has_key_false; exact Eh].
Qed.

Lemma lookup_filter : forall (P : nat * value -> bool) m k, uniq m ->
  lookup k (filter P m) =
    match lookup k m with
    | Some v => if P (k, v) then Some v else None
    | None => None
    end.
Proof.
  intros P m k. unfold uniq, keys. induction m as [|[k' v'] m IH]; intros Hu; cbn [filter lookup].
  - reflexivity.
  - cbn [map fst] in Hu. apply NoDup_cons_iff in Hu as [Hni Hnd]. specialize (IH Hnd).
    destruct (Nat.eqb_spec k k') as [->|n].
    + destruct (P (k', v')).
      * cbn [lookup]. rewrite Nat.eqb_refl. reflexivity.
      * rewrite IH, (proj2 (lookup_None_iff k' m) Hni). reflexivity.
    + destruct (P (k', v')); [|exact IH].
      cbn [lookup]. rewrite (proj2 (Nat.eqb_neq k k') n). exact IH.
Qed.

Lemma reset_props_uniq : forall old new, uniq new -> uniq (reset_props old new).
Proof.
  intros old new Hu. rewrite reset_props_eq. apply uniq_filter. apply fold_step_uniq. exact Hu.
Qed.

Lemma lookup_reset_props : forall old new k, uniq new ->
  lookup k (reset_props old new) =
    match lookup k new, lookup k old with
    | Some v, Some ov => if veq v ov then None else Some v
    | Some v, None => Some v
    | None, Some ov => if veq VDelete ov then None else Some VDelete
    | None, None => None
    end.
Proof.
  intros old new k Hu. rewrite reset_props_eq.
  rewrite lookup_filter by (apply fold_step_uniq; exact Hu).
  rewrite fold_step_lookup. unfold has_key, keep.
  destruct (lookup k new) as [v|], (lookup k old) as [ov|]; try reflexivity.
  - destruct (veq v ov); reflexivity.
  - destruct (veq VDelete ov); reflexivity.
Qed.

(* Without its hypothesis on `old`, reset_converges_partial is false: a VDelete value in the cached model survives
   the reset. *)
Example reset_converges_counterexample :
  let old := [(0, VDelete)] in
  let new := @nil (nat * value) in
  uniq old /\ uniq new /\ (forall k v, lookup k new = Some v -> v <> VDelete) /\
  reset_props old new = [] /\
  lookup 0 (snd (apply_change (reset_props old new) old)) = Some VDelete /\
  lookup 0 new = None.
Proof.
  cbv zeta. split; [|split; [|split; [|split; [|split]]]].
  - unfold uniq. cbn. constructor; [intros H; exact H | constructor].
  - unfold uniq. cbn. constructor.
  - intros k v H. cbn in H. discriminate H.
  - reflexivity.
  - reflexivity.
  - reflexivity.
Qed.

(* at every key, the change event computed by the reset leads from the cached value to the re-fetched one *)
Lemma reset_then_apply : forall old new k, uniq new ->
  (forall k v, lookup k new = Some v -> v <> VDelete) ->
  (forall k v, lookup k old = Some v -> v <> VDelete) ->
  upd (lookup k (reset_props old new)) (lookup k old) = lookup k new.
Proof.
  intros old new k Hun Hnew Hold. rewrite lookup_reset_props by exact Hun.
  destruct (lookup k new) as [v|] eqn:En, (lookup k old) as [ov|] eqn:Eo.
  - destruct (veq v ov) eqn:Ev.
    + apply veq_eq in Ev. subst ov. reflexivity.
    + apply upd_Some. exact (Hnew k v En).
  - apply upd_Some. exact (Hnew k v En).
  - destruct (veq VDelete ov) eqn:Ev; [|reflexivity].
    apply veq_eq in Ev. subst ov. elim (Hold k VDelete Eo). reflexivity.
  - reflexivity.
Qed.

(* Strongest true variant: the cached model holds no delete action. *)
Theorem reset_converges_partial : forall old new, uniq new ->
  (forall k v, lookup k new = Some v -> v <> VDelete) ->
  (forall k v, lookup k old = Some v -> v <> VDelete) ->
  let '(eff, m') := apply_change (reset_props old new) old in
  forall k, lookup k m' = lookup k new.
Proof.
  intros old new Hun Hnew Hold.
  pose proof (apply_change_lookup (reset_props old new) old) as H.
  destruct (apply_change (reset_props old new) old) as [eff m'] eqn:E. cbn [snd] in H.
  intros k. rewrite H. apply reset_then_apply; assumption.
Qed.

Lemma all_none_nil : forall m, (forall k, lookup k m = None) -> m = [].
Proof.
  intros [|[k v] m] H.
  - reflexivity.
  - specialize (H k). cbn [lookup] in H. rewrite Nat.eqb_refl in H. discriminate H.
Qed.

(* unchanged content yields no event; only `uniq new` is used *)
Theorem reset_noop_if : forall old new, uniq new ->
  (forall k, lookup k old = lookup k new) -> reset_props old new = [].
Proof.
  intros old new Hun Heq. apply all_none_nil. intros k.
  rewrite lookup_reset_props by exact Hun. rewrite (Heq k).
  destruct (lookup k new) as [v|]; [rewrite veq_refl; reflexivity | reflexivity].
Qed.

(* Without its hypothesis on `old`, reset_noop_iff_partial is false in the "only if" direction, by the example of
   reset_converges_counterexample. *)
Example reset_noop_iff_counterexample :
  let old := [(0, VDelete)] in
  let new := @nil (nat * value) in
  reset_props old new = [] /\ lookup 0 old <> lookup 0 new.
Proof.
  cbv zeta. split.
  - reflexivity.
  - cbn. intros H. discriminate H.
Qed.

(* Strongest true variant: the cached model holds no delete action.
   An empty event changes nothing when applied, so "only if" is reset_then_apply. *)
Theorem reset_noop_iff_partial : forall old new, uniq new ->
  (forall k v, lookup k new = Some v -> v <> VDelete) ->
  (forall k v, lookup k old = Some v -> v <> VDelete) ->
  (reset_props old new = [] <-> forall k, lookup k old = lookup k new).
Proof.
  intros old new Hun Hnew Hold. split.
  - intros Hnil k. pose proof (reset_then_apply old new k Hun Hnew Hold) as H.
    rewrite Hnil in H. exact H.
  - apply reset_noop_if. exact Hun.
Qed.

Example ex_reset_props :
  reset_props [(0, VPrim 1); (1, VRef 2)] [(1, VRef 2); (2, VPrim 3)] = [(0, VDelete); (2, VPrim 3)].
Proof. reflexivity. Qed.

Example ex_reset_apply :
  apply_change (reset_props [(0, VPrim 1); (1, VRef 2)] [(1, VRef 2); (2, VPrim 3)])
               [(0, VPrim 1); (1, VRef 2)]
  = ([(0, VDelete); (2, VPrim 3)], [(1, VRef 2); (2, VPrim 3)]).
Proof. reflexivity. Qed.

Print Assumptions uniq_remove_key.
Print Assumptions uniq_set_key_fresh.
Print Assumptions uniq_set_key_sorted.
Print Assumptions ksorted_set_key.
Print Assumptions ksorted_remove_key.
Print Assumptions set_key_not_uniq_counterexample.
Print Assumptions apply_change_client_uniq_counterexample.
Print Assumptions apply_change_client_partial.
Print Assumptions apply_change_client_lookup_only.
Print Assumptions apply_change_lookup.
Print Assumptions reset_props_uniq.
Print Assumptions lookup_reset_props.
Print Assumptions reset_converges_counterexample.
Print Assumptions reset_converges_partial.
Print Assumptions reset_noop_if.
Print Assumptions reset_noop_iff_counterexample.
Print Assumptions reset_noop_iff_partial.
