(* Isolation (C10): a connection task addresses its own connection only; tokens are changed by token events only.
   What a task may send and what it keeps is one relation between task records, [tstep]: it holds of the handlers by the
   induction of CoreProofsABC.v (section Handlers) and of the task of a grant by the case analysis ct_spec. *)
From Coq Require Import List Arith Lia Bool.
From RG Require Import Comp.Conv Comp.Core Proofs.CoreProofsABC.
Import ListNotations.

Section CoreProofs.
Variables (val upd : Type) (app : upd -> val -> val) (norm : upd -> val -> option upd) (d : val).
Hypothesis norm_none : forall u v, norm u v = None -> app u v = v.
Hypothesis norm_some : forall u v u', norm u v = Some u' -> app u' v = app u v.

Notation exec := (Core.exec val upd app norm d).
Notation conns := (Core.conns val upd).
Notation insts := (Core.insts val upd).

(* the connection an output is addressed to / made on behalf of *)
Definition addressee (o : Core.out val upd) : option nat :=
  match o with
  | Core.OResp _ _ c _ _ | Core.OErr _ _ c _ _ | Core.OAck _ _ c _ _ | Core.OEvent _ _ c _ | Core.OCustom _ _ c
  | Core.OUnsubEv _ _ c | Core.OAccessReq _ _ c _ _ | Core.OConnUnsub _ _ c => Some c
  | _ => None
  end.

Notation tk_ := (Core.tk val upd).
Notation step := (Core.step val upd app norm).
Notation tx := (Core.tx val upd).
Notation to := (Core.to val upd).
Notation act := (Core.act val upd app norm).
Notation emit := (Core.emit val upd).
Notation conn_task := (Core.conn_task val upd app norm).
Notation K0 s x y := (Core.Build_tk val upd (Core.cv val upd s) [] x y []).
Notation WF := (CoreProofsABC.WF val upd).

Section Steps.
Variables (c : nat) (oi : option nat).

(* what a task of connection c serving instance oi may send while the connection's token is t *)
Definition fine (t : nat) (x : Core.out val upd) : Prop :=
  match addressee x with Some c' => c' = c | None => True end /\
  match x with Core.OAccessReq _ _ _ i t' => oi = Some i /\ t' = t | _ => True end.

Record tstep (k k' : tk_) : Prop := {
  t_tok : tok (tx k') = tok (tx k);
  t_outs : Forall (fine (tok (tx k))) (to k) -> Forall (fine (tok (tx k))) (to k') }.

Lemma t_quiet k k' : tok (tx k') = tok (tx k) -> to k' = to k -> tstep k k'.
Proof. intros A C. constructor; [exact A|]. rewrite C. auto. Qed.
Lemma t_refl k : tstep k k.
Proof. apply t_quiet; reflexivity. Qed.
Lemma t_trans k1 k2 k3 : tstep k1 k2 -> tstep k2 k3 -> tstep k1 k3.
Proof. intros [A C] [A' C']. constructor; [congruence|]. rewrite A in C'. auto. Qed.
Lemma t_act k a : tstep k (act k a).
Proof. apply t_quiet; reflexivity. Qed.
Lemma t_sety k y : tstep k (Core.sety val upd k y).
Proof. apply t_quiet; reflexivity. Qed.
Lemma t_setx k x : tok x = tok (tx k) -> tstep k (Core.setx val upd k x).
Proof. intros H. apply t_quiet; [exact H|reflexivity]. Qed.
Lemma t_emit k o : Forall (fine (tok (tx k))) o -> tstep k (emit k o).
Proof. intros H. constructor; [reflexivity|]. intros H0. apply Forall_app. split; assumption. Qed.
Lemma t_frames k o : Forall (CoreProofsABC.hframe val upd c) o -> tstep k (emit k o).
Proof.
  intros H. apply t_emit. eapply Forall_impl; [|exact H].
  intros x. destruct x as [| | |c' id [v|]| | | | | |]; unfold fine; cbn [CoreProofsABC.hframe addressee]; tauto.
Qed.
Lemma t_data k id v : tstep k (emit k [Core.OResp val upd c id (Some v)]).
Proof. apply t_emit. repeat constructor. Qed.
End Steps.
(* the one place an access request is made: Core.load_access, with the token the task's connection record holds *)
Lemma t_req c i k : tstep c (Some i) k (emit k [Core.OAccessReq val upd c i (tok (tx k))]).
Proof. apply t_emit. repeat constructor. Qed.

(* as by_handler in CoreProofsABC, for [tstep] *)
Ltac handler h := eapply h with (R := tstep _ _); eauto using t_refl, t_trans, t_act, t_sety, t_setx, t_frames, t_req, t_data.

Lemma t_body_req s c x id q i :
  tstep c (Some i) (K0 s (Core.with_cd (Core.with_q x q) (Some i) (S (direct x))) (insts s i))
    (CoreProofsABC.body_req val upd app norm s c x id q i).
Proof.
  unfold CoreProofsABC.body_req. cbv zeta. destruct (acc (insts s i)) as [[|]|].
  - handler h_ready.
  - eapply t_trans; [|handler h_remove]. apply t_emit. repeat constructor.
  - handler h_load.
Qed.
Lemma t_body_unsub s c x id cnt q i :
  tstep c (Some i) (K0 s (Core.with_q x q) (insts s i)) (CoreProofsABC.body_unsub val upd app norm s c x id cnt q i).
Proof.
  unfold CoreProofsABC.body_unsub. cbv zeta. destruct (Nat.eqb cnt 0); [apply t_emit; repeat constructor|].
  destruct (Nat.leb cnt (direct x)); [|apply t_emit; repeat constructor].
  eapply t_trans; [|handler h_remove].
  destruct (Nat.eqb (direct x - cnt) 0); [eapply t_trans; [|apply t_sety]|]; apply t_emit; repeat constructor.
Qed.
Lemma t_body_access s c x q i :
  tstep c (Some i) (K0 s (Core.with_q x q) (insts s i)) (CoreProofsABC.body_access val upd app norm s c x q i).
Proof.
  unfold CoreProofsABC.body_access. cbv zeta. destruct (ans (insts s i)) as [g|]; [|apply t_refl].
  eapply t_trans; [|handler h_run_cbs]. apply t_sety.
Qed.
Lemma t_body_sub s c x q i :
  tstep c (Some i) (K0 s (Core.with_q x q) (insts s i)) (CoreProofsABC.body_sub val upd app norm s c x q i).
Proof.
  unfold CoreProofsABC.body_sub. cbv zeta. destruct (Conv.cq val upd (Conv.subs val upd (Core.cv val upd s) i)) as [|[|e|] l].
  - apply t_act.
  - destruct (Conv.gone val upd _); [apply t_act|]. eapply t_trans; [|handler h_respond].
    eapply t_trans; [|apply t_sety]. apply t_act.
  - eapply t_trans; [apply t_act|apply t_frames]. destruct (_ && _); [apply hframe_proc_o|constructor].
  - eapply t_trans; [apply t_act|handler h_reacc].
Qed.
Lemma t_body_dispose s c x q :
  tstep c (cur x) (K0 s (Core.with_cd (Core.with_q x q) None 0) (match cur x with Some i => insts s i | None => inst0 end))
    (CoreProofsABC.body_dispose val upd app norm s c x q).
Proof.
  unfold CoreProofsABC.body_dispose. cbv zeta. eapply t_trans; [|apply t_emit; repeat constructor].
  eapply t_trans; [|apply t_sety]. apply t_quiet; [f_equal|]; apply acts_frame.
Qed.

(* The task of a grant starts, with nothing sent, from a connection record that holds the connection's token, or the new one if
   the task is a token event's (the record is updated before reaccess runs). *)
Lemma task_end s c :
  let r := conn_task s c in
  exists x y, tstep c (snd (fst (fst r))) (K0 s x y) (fst (fst (fst r))) /\
    (tok x = tok (conns s c) \/ exists t q, cqueue (conns s c) = QToken t :: q).
Proof.
  cbv zeta.
  destruct (ct_spec val upd app norm s c) as [Eq|id q Eq Ec|id q i Eq Ec|id cnt q i Eq Ec|id cnt q Eq Ec|t q i Eq Ec|t q Eq Ec|i q Eq Eg|i q Eq Eg|i q Eq|q Eq];
    cbn [fst snd]; do 2 eexists.
  - split; [apply t_refl|left; reflexivity].
  - split; [eapply t_trans; [|handler h_load]; eapply t_trans; [apply t_act|apply t_emit]; destruct (Core.mqsub val upd s); repeat constructor|].
    left; reflexivity.
  - split; [apply t_body_req|left; reflexivity].
  - split; [apply t_body_unsub|left; reflexivity].
  - split; [apply t_emit; repeat constructor|left; reflexivity].
  - split; [destruct (tokset (conns s c)); [handler h_reacc|apply t_refl]|right; exists t, q; exact Eq].
  - split; [apply t_refl|right; exists t, q; exact Eq].
  - split; [apply t_refl|left; reflexivity].
  - split; [apply t_body_access|left; reflexivity].
  - split; [apply t_body_sub|left; reflexivity].
  - split; [apply t_body_dispose|left; reflexivity].
Qed.

Theorem core_isolation : forall t ops o,
  let s := fst (exec t ops) in
  let '(s', outs) := Core.step val upd app norm s o in
  (forall c, o = Core.GrantConn upd c ->
     forall x, In x outs -> (addressee x = None \/ addressee x = Some c) /\
       match x with
       | Core.OAccessReq _ _ c' i tk => c' = c /\ Core.owner (insts s' i) = c /\ tk = Core.tok (conns s' c)
       | _ => True
       end) /\
  ((forall c, o <> Core.GrantConn upd c) -> forall x, In x outs -> addressee x = None).
Proof.
  intros t ops o s. assert (W : WF s) by (apply wf_exec; assumption). clearbody s.
  destruct (step s o) as [s' outs] eqn:Es. split.
  - intros c -> x Hin. destruct (cqueue (conns s c)) as [|it q] eqn:Eq.
    { rewrite step_conn_empty in Es by exact Eq. injection Es as <- <-. destruct Hin. }
    rewrite step_conn in Es by (rewrite Eq; discriminate).
    destruct (task_end s c) as (x0 & y0 & [Ht Hl] & _). pose proof (CoreProofsABC.task_serves val upd app norm s c W) as Hy. cbv zeta in *.
    destruct (conn_task s c) as [[[k oi] nx] ms]. cbn [fst snd Core.tx Core.ty Core.to] in *.
    injection Es as <- <-. cbn [Core.conns Core.insts]. rewrite set_conn_eq, Ht.
    specialize (Hl (Forall_nil _)). rewrite Forall_forall in Hl. destruct (Hl x Hin) as [A1 A2]. split.
    + destruct (addressee x); [right; f_equal; exact A1|left; reflexivity].
    + destruct x as [|c' i t'| | | | | | | |]; try exact I. destruct A2 as [-> ->].
      rewrite set_inst_eq. split; [exact A1|]. split; [apply (Hy i eq_refl)|reflexivity].
  - intros Hne x Hin. rewrite (nongrant_out val upd app norm s o x Hne); [reflexivity|rewrite Es; exact Hin].
Qed.

Theorem core_token_own : forall t ops o c,
  let s := fst (exec t ops) in
  let s' := fst (Core.step val upd app norm s o) in
  Core.tok (conns s' c) <> Core.tok (conns s c) -> o = Core.GrantConn upd c /\ exists tk q, Core.cqueue (conns s c) = Core.QToken tk :: q.
Proof.
  intros t ops o c s s' H. subst s'. clearbody s.
  destruct (grant_dec upd o) as [[c0 ->]|Hng];
    [|exfalso; exact (H (nc_tok (ng_conn (nongrant_step val upd app norm s o Hng) c)))].
  destruct (Nat.eq_dec c c0) as [<-|Hne]; [|exfalso; apply H; rewrite conns_other by exact Hne; reflexivity].
  split; [reflexivity|]. destruct (task_end s c) as (x & y & [Ht _] & [Hx|Hx]); [|exact Hx]. exfalso. apply H.
  apply (CoreProofsABC.grant_ind val upd app norm); [reflexivity|]. intros it q k oi nx ms _ Ec _. cbv zeta in Ht. rewrite Ec in Ht.
  cbn [fst Core.conns Core.tx] in *. rewrite set_conn_eq. congruence.
Qed.

End CoreProofs.

Print Assumptions core_isolation.
Print Assumptions core_token_own.
