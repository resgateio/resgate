(* C14: proofs about the models of codec.IsValidRIDPart and the method split of rpc.HandleRequest
   (theories/Pure/RidPart.v), on top of theories/Pure/Rid.v. *)
From Coq Require Import List Ascii NArith Bool Arith String.
From RG Require Pure.CanCall.
From RG Require Import Pure.Rid Pure.RidPart.
Import ListNotations.

(* IsValidRIDPart refuses what IsValidRID refuses, and the dot and the question mark as well *)
Lemma not_bad_part_okc : forall c, negb (bad_part c) = true -> Rid.okc c = true.
Proof.
  intros c H. apply negb_true_iff in H. unfold bad_part in H.
  apply orb_false_iff in H as [H Hq]. apply orb_false_iff in H as [H Hg].
  apply orb_false_iff in H as [H Hs]. apply orb_false_iff in H as [H Hd].
  apply okc_of; [exact Hq| |exact Hd]. unfold bad. rewrite H, Hs, Hg. reflexivity.
Qed.

Theorem valid_part_clean : forall p, is_valid_part p = true -> Rid.tok_ok p.
Proof.
  intros [|c p] H; [discriminate H|]. split; [discriminate|].
  unfold is_valid_part in H. rewrite forallb_forall in *. intros x Hx. apply not_bad_part_okc, H, Hx.
Qed.

Lemma split_first_dot_spec : forall m a r, split_first_dot m = Some (a, r) ->
  m = a ++ Rid.dot :: r /\ forallb (fun c => negb (Rid.is c Rid.dot)) a = true.
Proof.
  induction m as [|c m IH]; intros a r H; [discriminate H|].
  cbn [split_first_dot] in H. destruct (Rid.is c Rid.dot) eqn:Ed.
  - injection H as <- <-. apply Ascii.eqb_eq in Ed. subst c. split; reflexivity.
  - destruct (split_first_dot m) as [[a' r']|]; [|discriminate H]. injection H as <- <-.
    destruct (IH a' r' eq_refl) as [-> Hall]. split; [reflexivity|]. cbn [forallb]. rewrite Ed. exact Hall.
Qed.

Lemma split_last_dot_none : forall m, split_last_dot m = None ->
  forallb (fun c => negb (Rid.is c Rid.dot)) m = true.
Proof.
  induction m as [|c m IH]; intros H; [reflexivity|].
  cbn [split_last_dot] in H. destruct (split_last_dot m) as [[a' r']|]; [discriminate H|].
  destruct (Rid.is c Rid.dot) eqn:Ed; [discriminate H|]. cbn [forallb]. rewrite Ed. exact (IH eq_refl).
Qed.

Lemma split_last_dot_spec : forall m a r, split_last_dot m = Some (a, r) ->
  m = a ++ Rid.dot :: r /\ forallb (fun c => negb (Rid.is c Rid.dot)) r = true.
Proof.
  induction m as [|c m IH]; intros a r H; [discriminate H|].
  cbn [split_last_dot] in H. destruct (split_last_dot m) as [[a' r']|] eqn:Es.
  - injection H as <- <-. destruct (IH a' r' eq_refl) as [-> Hall]. split; [reflexivity|exact Hall].
  - destruct (Rid.is c Rid.dot) eqn:Ed; [|discriminate H]. injection H as <- <-.
    apply Ascii.eqb_eq in Ed. subst c. split; [reflexivity|exact (split_last_dot_none m Es)].
Qed.

(* whatever the dispatcher forwards is subject-clean and re-assembles to the request method *)
Theorem dispatch_forwards_clean : forall m a rid meth,
  dispatch_method m = DAction a rid meth ->
  known_action a = true /\
  is_valid_rid rid true = true /\
  Rid.clean (Rid.name_of rid) /\
  (meth = [] \/ Rid.tok_ok meth) /\
  m = a ++ Rid.dot :: rid ++ (match meth with [] => [] | _ => Rid.dot :: meth end).
Proof.
  intros m a rid meth H. unfold dispatch_method in H.
  destruct (split_first_dot m) as [[action rid0]|] eqn:Ef; [|destruct (leqb m s_version); discriminate H].
  apply split_first_dot_spec in Ef as [-> _].
  destruct (leqb action s_call || leqb action s_auth) eqn:Eca.
  - (* call and auth: the method is what follows the last dot *)
    destruct (split_last_dot rid0) as [[rid' meth']|] eqn:El; [|discriminate H].
    apply split_last_dot_spec in El as [-> _].
    destruct (is_valid_part meth') eqn:Evp; [|discriminate H].
    destruct (is_valid_rid rid' true) eqn:Evr; [|discriminate H]. injection H as <- <- <-.
    split. { unfold known_action. apply orb_prop in Eca as [E|E]; rewrite E, ?orb_true_r; reflexivity. }
    split; [exact Evr|]. split; [exact (valid_rid_subject_clean _ _ Evr)|].
    split; [right; exact (valid_part_clean _ Evp)|]. destruct meth'; [discriminate Evp|reflexivity].
  - destruct (is_valid_rid rid0 true) eqn:Evr; [|discriminate H].
    destruct (known_action action) eqn:Ek; [|discriminate H]. injection H as <- <- <-.
    split; [exact Ek|]. split; [exact Evr|]. split; [exact (valid_rid_subject_clean _ _ Evr)|].
    split; [left; reflexivity|]. rewrite app_nil_r. reflexivity.
Qed.

Theorem dispatch_total : forall m, exists d, dispatch_method m = d /\
  match d with DVersion => m = s_version | _ => True end.
Proof.
  intros m. exists (dispatch_method m). split; [reflexivity|].
  unfold dispatch_method.
  destruct (split_first_dot m) as [[action rid0]|] eqn:Ef.
  - destruct (leqb action s_call || leqb action s_auth).
    + destruct (split_last_dot rid0) as [[rid' meth']|]; [|exact I].
      destruct (negb (is_valid_part meth')); [exact I|].
      destruct (negb (is_valid_rid rid' true)); exact I.
    + destruct (negb (is_valid_rid rid0 true)); [exact I|].
      destruct (known_action action); exact I.
  - destruct (leqb m s_version) eqn:Ev; [|exact I].
    apply CanCall.leqb_eq. exact Ev.
Qed.

(* a dot-free method is never forwarded *)
Corollary dispatch_nodot_not_forwarded : forall m a rid meth,
  split_first_dot m = None -> dispatch_method m <> DAction a rid meth.
Proof.
  intros m a rid meth Hn H. unfold dispatch_method in H. rewrite Hn in H.
  destruct (leqb m s_version); discriminate H.
Qed.

Definition s2l (s : string) := list_ascii_of_string s.

Example d_call : dispatch_method (s2l "call.a.b.m") = DAction (s2l "call") (s2l "a.b") (s2l "m").
Proof. reflexivity. Qed.
Example d_get_wild : dispatch_method (s2l "get.a.*") = DInvalid.
Proof. reflexivity. Qed.
Example d_call_short : dispatch_method (s2l "call.a") = DInvalid.
Proof. reflexivity. Qed.
Example d_version : dispatch_method (s2l "version") = DVersion.
Proof. reflexivity. Qed.
Example d_get : dispatch_method (s2l "get.a.b?q=1") = DAction (s2l "get") (s2l "a.b?q=1") [].
Proof. reflexivity. Qed.
(* the "last dot" rule: the method is whatever follows the LAST dot, even when that dot is inside the query *)
Example d_auth_query : dispatch_method (s2l "auth.a.b?q=x.y.m") = DAction (s2l "auth") (s2l "a.b?q=x.y") (s2l "m").
Proof. reflexivity. Qed.
Example d_call_query : dispatch_method (s2l "call.a.b?q=x.m") = DAction (s2l "call") (s2l "a.b?q=x") (s2l "m").
Proof. reflexivity. Qed.
(* a dot inside the query value is taken as the method separator: query "q=x.y" is cut to "q=x", method "y" *)
Example d_call_query_cut : dispatch_method (s2l "call.a.b?q=x.y") = DAction (s2l "call") (s2l "a.b?q=x") (s2l "y").
Proof. reflexivity. Qed.
(* no resource name at all before the method dot *)
Example d_call_noname : dispatch_method (s2l "call..m") = DInvalid.
Proof. reflexivity. Qed.
Example d_unknown_action : dispatch_method (s2l "foo.a.b") = DInvalid.
Proof. reflexivity. Qed.

Print Assumptions valid_part_clean.
Print Assumptions split_first_dot_spec.
Print Assumptions split_last_dot_spec.
Print Assumptions dispatch_forwards_clean.
Print Assumptions dispatch_total.
Print Assumptions dispatch_nodot_not_forwarded.
