(* Proofs about Pure/Header.v: codec.Meta.Canonicalize followed by codec.MergeHeader. *)
From Coq Require Import List Ascii NArith Bool Arith String.
From RG Require Pure.CanCall.
From RG Require Import Pure.Header.
Import ListNotations.

Lemma leqb_eq : forall a b, leqb a b = true <-> a = b.
Proof. exact CanCall.leqb_eq. Qed.

Lemma leqb_spec : forall a b, reflect (a = b) (leqb a b).
Proof. intros a b. apply iff_reflect. symmetry. apply leqb_eq. Qed.

Lemma leqb_refl : forall a, leqb a a = true.
Proof. intros a. apply leqb_eq. reflexivity. Qed.

Lemma leqb_neq : forall a b, a <> b -> leqb a b = false.
Proof. intros a b H. destruct (leqb_spec a b); [contradiction | reflexivity]. Qed.

Lemma hget_hdel : forall k k' h, hget k (hdel k' h) = if leqb k k' then None else hget k h.
Proof.
  intros k k' h. induction h as [|[k2 v2] h IH]; cbn [hget hdel].
  - destruct (leqb k k'); reflexivity.
  - destruct (leqb_spec k' k2) as [<-|n]; cbn [hget]; rewrite IH.
    + destruct (leqb k k'); reflexivity.
    + destruct (leqb_spec k k2) as [->|]; [|reflexivity]. rewrite (leqb_neq k2 k') by auto. reflexivity.
Qed.

Lemma hget_hdel_same : forall k h, hget k (hdel k h) = None.
Proof. intros k h. rewrite hget_hdel, leqb_refl. reflexivity. Qed.

Lemma hget_hset : forall k k' v h, hget k (hset k' v h) = if leqb k k' then Some v else hget k h.
Proof.
  intros k k' v h. unfold hset. cbn [hget]. rewrite hget_hdel. destruct (leqb k k'); reflexivity.
Qed.

Lemma hget_hset_same : forall k v h, hget k (hset k v h) = Some v.
Proof. intros k v h. rewrite hget_hset, leqb_refl. reflexivity. Qed.

Lemma hget_hset_other : forall k k' v h, k <> k' -> hget k (hset k' v h) = hget k h.
Proof. intros k k' v h Hne. rewrite hget_hset, (leqb_neq k k' Hne). reflexivity. Qed.

Lemma hget_notin : forall k h, ~ In k (map fst h) -> hget k h = None.
Proof.
  intros k h. induction h as [|[k2 v2] h IH]; intros Hni; cbn [hget].
  - reflexivity.
  - cbn [map fst In] in Hni. destruct (leqb_spec k k2) as [->|_]; [elim Hni | apply IH]; auto.
Qed.

Lemma hdel_filter : forall k h, hdel k h = filter (fun p => negb (leqb k (fst p))) h.
Proof.
  intros k h. induction h as [|[k2 v2] h IH]; cbn [hdel filter fst]; [reflexivity|].
  rewrite IH. destruct (leqb k k2); reflexivity.
Qed.

Lemma In_hdel : forall k v k' h, In (k, v) (hdel k' h) -> In (k, v) h /\ k <> k'.
Proof.
  intros k v k' h Hin. rewrite hdel_filter in Hin. apply filter_In in Hin as [Hin Hne].
  split; [exact Hin|]. intros ->. cbn [fst] in Hne. rewrite leqb_refl in Hne. discriminate Hne.
Qed.

Lemma In_keys_hdel : forall k k' h, In k (map fst (hdel k' h)) -> In k (map fst h) /\ k <> k'.
Proof.
  intros k k' h Hin. apply in_map_iff in Hin as [[k1 v] [<- Hin]]. apply In_hdel in Hin as [Hin Hne].
  split; [exact (in_map fst _ _ Hin) | exact Hne].
Qed.

Lemma In_hset : forall k v k' w h, In (k, v) (hset k' w h) -> k = k' \/ In (k, v) h.
Proof.
  intros k v k' w h [[= <- _]|Hin]; [left; reflexivity | right; exact (proj1 (In_hdel _ _ _ _ Hin))].
Qed.

(* Facts about single bytes that a boolean test decides are proved by evaluating the test on all 256 bytes; the
   conjunction is taken bit by bit, so the proof is one evaluation, not 256 cases. *)

Definition all_bool (f : bool -> bool) : bool := f true && f false.

Definition all_bytes (p : ascii -> bool) : bool :=
  all_bool (fun a => all_bool (fun b => all_bool (fun c => all_bool (fun d => all_bool (fun e => all_bool (fun f =>
  all_bool (fun g => all_bool (fun h => p (Ascii a b c d e f g h))))))))).

Lemma all_bool_spec f : all_bool f = true -> forall b, f b = true.
Proof. intros H b. apply andb_prop in H. destruct b; apply H. Qed.

Lemma all_bytes_spec p : all_bytes p = true -> forall c, p c = true.
Proof.
  intros H [a b c d e f g h].
  exact (all_bool_spec _ (all_bool_spec _ (all_bool_spec _ (all_bool_spec _ (all_bool_spec _ (all_bool_spec _
        (all_bool_spec _ (all_bool_spec _ H a) b) c) d) e) f) g) h).
Qed.

Lemma up_up : forall c, up (up c) = up c.
Proof. intros c. apply Ascii.eqb_eq. revert c. apply all_bytes_spec. vm_compute; reflexivity. Qed.

Lemma low_low : forall c, low (low c) = low c.
Proof. intros c. apply Ascii.eqb_eq. revert c. apply all_bytes_spec. vm_compute; reflexivity. Qed.

Lemma up_dash : forall c, Ascii.eqb (up c) dash = Ascii.eqb c dash.
Proof. intros c. apply Bool.eqb_prop. revert c. apply all_bytes_spec. vm_compute; reflexivity. Qed.

Lemma low_dash : forall c, Ascii.eqb (low c) dash = Ascii.eqb c dash.
Proof. intros c. apply Bool.eqb_prop. revert c. apply all_bytes_spec. vm_compute; reflexivity. Qed.

Lemma canon_from_idem : forall k b, canon_from b (canon_from b k) = canon_from b k.
Proof.
  induction k as [|c k IH]; intros b; cbn [canon_from].
  - reflexivity.
  - destruct b.
    + rewrite up_up, up_dash, IH. reflexivity.
    + rewrite low_low, low_dash, IH. reflexivity.
Qed.

Lemma canon_idem : forall k, canon (canon k) = canon k.
Proof. intros k. unfold canon. apply canon_from_idem. Qed.

Lemma canonicalize_go_keys : forall todo h,
  (forall k, In k (map fst h) -> canon k = k \/ In k (map fst todo)) ->
  forall k, In k (map fst (canonicalize_go todo h)) -> canon k = k.
Proof.
  induction todo as [|[k0 v0] todo IH]; intros h Hinv k Hin; cbn [canonicalize_go] in Hin.
  - destruct (Hinv k Hin) as [H|[]]. exact H.
  - destruct (leqb_spec (canon k0) k0) as [E|_]; refine (IH _ _ k Hin); intros k1 H1.
    + destruct (Hinv k1 H1) as [H|[<-|H]]; auto.
    + apply In_keys_hdel in H1 as [[<-|H1] Hne]; [left; apply canon_idem|].
      apply In_keys_hdel in H1 as [H1 _].
      destruct (Hinv k1 H1) as [H|[<-|H]]; [auto | elim Hne; reflexivity | auto].
Qed.

Theorem canonicalize_keys : forall meta k, In k (map fst (canonicalize meta)) -> canon k = k.
Proof.
  intros meta k Hin. apply (canonicalize_go_keys meta meta); [|exact Hin].
  intros k1 H1. right. exact H1.
Qed.

(* merge writes only at the unprotected keys of b *)
Lemma merge_other : forall b a k,
  (forall k', In k' (map fst b) -> is_protected k' = false -> k <> k') -> hget k (merge a b) = hget k a.
Proof.
  induction b as [|[k' v'] b IH]; intros a k H; cbn [merge]; [reflexivity|].
  cbn [map fst In] in H.
  assert (IH' : forall a', hget k (merge a' b) = hget k a') by (intros a'; apply IH; auto).
  destruct (is_protected k') eqn:Ep; [apply IH'|].
  destruct (leqb k' set_cookie); rewrite IH'; apply hget_hset_other; auto.
Qed.

Lemma merge_notin : forall b a k, ~ In k (map fst b) -> hget k (merge a b) = hget k a.
Proof. intros b a k Hni. apply merge_other. intros k' Hin _ ->. exact (Hni Hin). Qed.

Theorem protected_never_replaced : forall a b k,
  is_protected k = true -> hget k (merge a b) = hget k a.
Proof. intros a b k Hp. apply merge_other. intros k' _ Hp' ->. congruence. Qed.

Corollary protected_not_created : forall resp meta k,
  is_protected k = true -> hget k resp = None -> hget k (apply_meta resp meta) = None.
Proof. intros resp meta k Hp Hn. unfold apply_meta. rewrite protected_never_replaced by exact Hp. exact Hn. Qed.

Lemma merge_keys : forall b a k v,
  In (k, v) (merge a b) ->
  (exists v', In (k, v') a) \/ (In k (map fst b) /\ is_protected k = false).
Proof.
  induction b as [|[k' v'] b IH]; intros a k v Hin; cbn [merge] in Hin; [eauto|].
  cbn [map fst In]. destruct (is_protected k') eqn:Ep.
  - apply IH in Hin as [H|[H1 H2]]; auto.
  - assert (Hw : exists w, In (k, v) (merge (hset k' w a) b)) by (destruct (leqb k' set_cookie); eauto).
    destruct Hw as [w Hw]. apply IH in Hw as [[v1 H1]|[H1 H2]]; [|auto].
    apply In_hset in H1 as [->|H1]; [auto | eauto].
Qed.

Theorem merged_keys_canonical : forall resp meta k v,
  In (k, v) (apply_meta resp meta) ->
  (exists v', In (k, v') resp) \/ (canon k = k /\ is_protected k = false).
Proof.
  intros resp meta k v Hin. apply merge_keys in Hin as [H|[H1 H2]]; [left; exact H|].
  right. split; [exact (canonicalize_keys meta k H1) | exact H2].
Qed.

(* what merging a header b with unique keys leaves at a key: protected names keep the response's value,
   Set-Cookie values are appended, every other value of b replaces the response's *)
Theorem hget_merge : forall b a k, NoDup (map fst b) ->
  hget k (merge a b) =
    if is_protected k then hget k a
    else match hget k b with
         | Some v => Some (if leqb k set_cookie
                           then (match hget k a with Some w => w | None => [] end) ++ v else v)
         | None => hget k a
         end.
Proof.
  induction b as [|[k' v'] b IH]; intros a k Hnd; cbn [merge hget].
  - destruct (is_protected k); reflexivity.
  - cbn [map fst] in Hnd. apply NoDup_cons_iff in Hnd as [Hni Hnd].
    destruct (leqb_spec k k') as [<-|Hne].
    + destruct (is_protected k) eqn:Ep; [rewrite IH, Ep by exact Hnd; reflexivity|].
      destruct (leqb k set_cookie); rewrite merge_notin by exact Hni; apply hget_hset_same.
    + destruct (is_protected k'); [|destruct (leqb k' set_cookie)]; rewrite IH by exact Hnd;
        rewrite ?hget_hset_other by exact Hne; reflexivity.
Qed.

Theorem set_cookie_accumulates : forall resp b,
  NoDup (map fst b) ->
  hget set_cookie (merge resp b) =
    match hget set_cookie b with
    | Some v => Some ((match hget set_cookie resp with Some w => w | None => [] end) ++ v)
    | None => hget set_cookie resp
    end.
Proof. intros resp b Hnd. rewrite hget_merge by exact Hnd. reflexivity. Qed.

Theorem non_protected_replaced : forall resp b k v,
  NoDup (map fst b) -> is_protected k = false -> leqb k set_cookie = false -> hget k b = Some v ->
  hget k (merge resp b) = Some v.
Proof. intros resp b k v Hnd Hp Hs Hg. rewrite hget_merge, Hp, Hg, Hs by exact Hnd. reflexivity. Qed.

(* The same two facts for the composite apply_meta, when the canonicalised meta has unique keys *)
Corollary apply_meta_replaces : forall resp meta k v,
  NoDup (map fst (canonicalize meta)) -> is_protected k = false -> leqb k set_cookie = false ->
  hget k (canonicalize meta) = Some v -> hget k (apply_meta resp meta) = Some v.
Proof. intros resp meta k v Hnd Hp Hs Hg. unfold apply_meta. apply non_protected_replaced; assumption. Qed.

Definition ex_resp : hmap := [(s2l "Content-Type", [1]); (s2l "Set-Cookie", [7])].
Definition ex_meta : hmap := [(s2l "content-type", [2]); (s2l "X-Custom", [3])].

Example ex_content_type_untouched :
  hget (s2l "Content-Type") (apply_meta ex_resp ex_meta) = Some [1].
Proof. reflexivity. Qed.

Example ex_no_second_spelling :
  hget (s2l "content-type") (apply_meta ex_resp ex_meta) = None.
Proof. reflexivity. Qed.

Example ex_custom_set :
  hget (s2l "X-Custom") (apply_meta ex_resp ex_meta) = Some [3].
Proof. reflexivity. Qed.

Example ex_lowercase_custom_canonicalised :
  hget (s2l "X-Custom") (apply_meta ex_resp [(s2l "x-cUSTOM", [4])]) = Some [4]
  /\ hget (s2l "x-cUSTOM") (apply_meta ex_resp [(s2l "x-cUSTOM", [4])]) = None.
Proof. split; reflexivity. Qed.

Example ex_set_cookie_appended :
  hget set_cookie (apply_meta ex_resp [(s2l "set-cookie", [8]); (s2l "Set-Cookie", [9])]) = Some [7; 9; 8].
Proof. reflexivity. Qed.

Example ex_protected_not_created :
  hget (s2l "Access-Control-Allow-Origin")
       (apply_meta ex_resp [(s2l "access-control-allow-origin", [5])]) = None.
Proof. reflexivity. Qed.

Print Assumptions leqb_eq.
Print Assumptions canon_idem.
Print Assumptions canonicalize_keys.
Print Assumptions protected_never_replaced.
Print Assumptions protected_not_created.
Print Assumptions merged_keys_canonical.
Print Assumptions set_cookie_accumulates.
Print Assumptions non_protected_replaced.
Print Assumptions apply_meta_replaces.
