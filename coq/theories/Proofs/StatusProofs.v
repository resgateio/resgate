(* C17: the status tables, stated for all integers / all codes. *)
From Coq Require Import ZArith Bool List Lia.
From RG Require Import Pure.Status.
Import ListNotations.
Open Scope Z_scope.

Theorem error_status_table : forall c,
  error_status c =
    match c with
    | NotFound | MethodNotFound | Timeout => 404
    | AccessDenied => 401
    | Forbidden => 403
    | MethodNotAllowed => 405
    | SubjectTooLong => 414
    | InternalError => 500
    | ServiceUnavailable => 503
    | InvalidParams | InvalidQuery | NoSubscription | InvalidRequest | UnsupportedProtocol | Deleted
    | BadRequest | NotImplemented | OtherCode => 400
    end.
Proof. destruct c; reflexivity. Qed.

Theorem error_status_is_error : forall c, 400 <= error_status c < 600.
Proof. destruct c; cbn; lia. Qed.

Lemma in_range a b s : (a <=? s) && (s <? b) = true <-> a <= s < b.
Proof. rewrite andb_true_iff, Z.leb_le, Z.ltb_lt. reflexivity. Qed.

Lemma off_range a b s : s < a \/ b <= s -> (a <=? s) && (s <? b) = false.
Proof. intros H. apply not_true_is_false. rewrite in_range. lia. Qed.

(* a service-supplied meta status is honoured exactly within 300..599 *)
Theorem direct_iff_range : forall s, is_direct (Some s) = true <-> 300 <= s <= 599.
Proof. intros s. unfold is_direct. rewrite in_range. lia. Qed.

Theorem no_status_not_direct : is_direct None = false.
Proof. reflexivity. Qed.

Theorem valid_iff_absent_or_range : forall o,
  is_valid_status o = true <-> match o with None => True | Some s => 300 <= s <= 599 end.
Proof. intros [s|]; cbn [is_valid_status]; [rewrite in_range; lia|tauto]. Qed.

Lemma In_if {A} (c : bool) (x y : A) l : In x l -> In y l -> In (if c then x else y) l.
Proof. destruct c; auto. Qed.

(* a status used to end a request maps to an error of the matching class *)
Theorem status_error_class : forall s,
  (400 <= s <= 499 -> In (status_error s) [AccessDenied; Forbidden; NotFound; MethodNotAllowed; Timeout; BadRequest]) /\
  (500 <= s <= 599 -> In (status_error s) [NotImplemented; ServiceUnavailable; Timeout; InternalError]) /\
  (s < 400 \/ 600 <= s -> status_error s = InternalError).
Proof.
  intros s. unfold status_error. repeat split; intros H.
  - rewrite (proj2 (in_range 400 500 s)) by lia. repeat apply In_if; cbn [In]; auto 8.
  - rewrite (off_range 400 500), (proj2 (in_range 500 600 s)) by lia. repeat apply In_if; cbn [In]; auto 8.
  - rewrite (off_range 400 500), (off_range 500 600) by lia. reflexivity.
Qed.
