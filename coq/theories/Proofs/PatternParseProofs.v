(* C12: proofs about the model of rescache.ParseResourcePattern / ResourcePattern.Match
   (models in Pure/Pattern.v and Pure/PatternParse.v). *)
From Coq Require Import List Ascii NArith Bool Arith Lia.
From RG Require Import Pure.Pattern Pure.PatternParse.
Import ListNotations.

(* a byte allowed inside a token: 33..126, not '?', not '.' *)
Definition okc (c : ascii) : bool := negb (badc c) && negb (is c dot).
Definition tok_chars_ok (t : list ascii) : Prop := forallb okc t = true.
Definition has_wild (pt : list (list ascii)) : bool :=
  existsb (fun t => leqb t [star] || leqb t [gt]) pt.
(* a well-formed pattern on tokens: valid_pat plus the byte-range condition on literal tokens *)
Definition wf_pat (pt : list (list ascii)) : Prop :=
  pt <> [] /\ valid_pat pt /\ Forall tok_chars_ok pt.

(* wf_pat without the demand that there be a token: what may follow a token *)
Definition owf (pt : list (list ascii)) : Prop := valid_pat pt /\ Forall tok_chars_ok pt.

Lemma is_true_eq c d : is c d = true -> c = d.
Proof. unfold is. intros H. apply Ascii.eqb_eq. exact H. Qed.

Lemma okc_facts c : okc c = true -> badc c = false /\ is c dot = false.
Proof.
  unfold okc. intros H. apply andb_prop in H as [H1 H2].
  apply negb_true_iff in H1. apply negb_true_iff in H2. split; assumption.
Qed.

Lemma okc_intro c : badc c = false -> is c dot = false -> okc c = true.
Proof. intros H1 H2. unfold okc. rewrite H1, H2. reflexivity. Qed.

Lemma litc_intro c : is c dot = false -> is c star = false -> is c gt = false -> litc c = true.
Proof. intros H1 H2 H3. unfold litc. rewrite H1, H2, H3. reflexivity. Qed.

Lemma okc_nodot t : tok_chars_ok t -> nodot t.
Proof.
  unfold tok_chars_ok, nodot. induction t as [|c t IH]; cbn [forallb]; intros H; [reflexivity|].
  apply andb_prop in H as [Hc Ht]. destruct (okc_facts c Hc) as [_ Hd].
  rewrite Hd, (IH Ht). reflexivity.
Qed.

Lemma has_wild_cons t pt :
  has_wild (t :: pt) = (leqb t [star] || leqb t [gt]) || has_wild pt.
Proof. reflexivity. Qed.

Lemma has_wild_lit t pt : lit_tok t -> has_wild (t :: pt) = has_wild pt.
Proof. intros H. rewrite has_wild_cons. destruct (lit_not_wild t H) as (-> & -> & _). reflexivity. Qed.

Lemma owf_cons t pt : pat_tok t -> tok_chars_ok t -> owf pt -> owf (t :: pt).
Proof.
  intros Ht Hc [Hv Hf]. split; [apply valid_pat_cons|constructor]; assumption.
Qed.

Lemma owf_inv t pt :
  owf (t :: pt) -> tok_chars_ok t /\ ((t = [gt] /\ pt = []) \/ (pat_tok t /\ owf pt)).
Proof.
  intros [Hv Hf]. inversion Hf as [|? ? Hc Hf']; subst. split; [exact Hc|].
  destruct (valid_pat_cases _ _ Hv) as [H|[Ht Hv']]; [left; exact H|right].
  split; [exact Ht|split; assumption].
Qed.

Lemma owf_name_toks : forall pt, owf pt -> Forall name_tok pt.
Proof.
  induction pt as [|t pt IH]; intros Ho; [constructor|].
  destruct (owf_inv _ _ Ho) as [Hc [[-> ->]|[Ht Ho']]].
  - constructor; [split; [discriminate|reflexivity]|constructor].
  - constructor; [|apply IH; exact Ho'].
    split; [apply pat_tok_nonempty; exact Ht|apply okc_nodot; exact Hc].
Qed.

(* a joined list of name tokens ends in a byte that is no '.' *)
Lemma join_snoc : forall ts,
  Forall name_tok ts -> ts <> [] -> exists q x, join ts = q ++ [x] /\ is x dot = false.
Proof.
  induction ts as [|t ts IH]; intros Hf Hne; [congruence|].
  inversion Hf as [|? ? [Htne Htnd] Hf']; subst. rewrite join_cons. destruct ts as [|t2 ts].
  - destruct (exists_last Htne) as (q & x & ->). exists q, x. cbn [P]. rewrite app_nil_r. split; [reflexivity|].
    unfold nodot in Htnd. rewrite forallb_app in Htnd. apply andb_prop in Htnd as [_ Hx].
    cbn in Hx. rewrite andb_true_r in Hx. apply negb_true_iff. exact Hx.
  - destruct (IH Hf') as (q & x & E & Hx); [discriminate|]. exists (t ++ dot :: q), x. split; [|exact Hx].
    cbn [P]. rewrite E, <- app_assoc. reflexivity.
Qed.

Lemma pscan_litc c p st w :
  litc c = true -> okc c = true -> pscan (c :: p) st false w = pscan p false false w.
Proof.
  intros Hl Ho. destruct (litc_facts c Hl) as (Hd & Hs & Hg). destruct (okc_facts c Ho) as (Hb & _).
  cbn [pscan]. rewrite Hd, Hb, Hg, Hs. reflexivity.
Qed.

Lemma pscan_lits : forall t r st w,
  forallb litc t = true -> forallb okc t = true ->
  pscan (t ++ r) st false w = pscan r (match t with [] => st | _ => false end) false w.
Proof.
  induction t as [|c t IH]; intros r st w Hl Ho; cbn [app]; [reflexivity|].
  cbn [forallb] in Hl, Ho. apply andb_prop in Hl as [Hlc Hlt]. apply andb_prop in Ho as [Hoc Hot].
  rewrite (pscan_litc c _ st w Hlc Hoc), IH by assumption. destruct t; reflexivity.
Qed.

Lemma pscan_dot p al w : pscan (dot :: p) false al w = pscan p true false w.
Proof. reflexivity. Qed.

Lemma pscan_star p w : pscan (star :: p) true false w = pscan p false true true.
Proof. reflexivity. Qed.

(* after a token: either the end, or a '.' and the next token *)
Lemma pscan_P : forall pt al w, owf pt -> pscan (P pt) false al w = Some (w || has_wild pt).
Proof.
  induction pt as [|t pt IH]; intros al w Ho; [cbn; rewrite orb_false_r; reflexivity|].
  cbn [P]. rewrite pscan_dot, join_cons.
  destruct (owf_inv _ _ Ho) as [Hc [[-> ->]|[[->|Hlit] Ho']]].
  - destruct w; reflexivity.
  - cbn [app]. rewrite pscan_star, IH by exact Ho'. destruct w; reflexivity.
  - rewrite has_wild_lit by exact Hlit. destruct (lit_not_wild t Hlit) as (_ & _ & Hl).
    destruct t; [destruct Hlit; congruence|]. rewrite pscan_lits by assumption. apply IH, Ho'.
Qed.

Theorem parse_join : forall pt, wf_pat pt -> parse (join pt) = Some (has_wild pt).
Proof.
  intros pt Hwf. pose proof Hwf as [Hne Ho].
  destruct (join_snoc pt (owf_name_toks pt Ho) Hne) as (q & x & E & Hx).
  assert (Hp : parse (q ++ [x]) = pscan (q ++ [x]) true false false).
  { unfold parse. rewrite last_last, Hx. destruct q; reflexivity. }
  rewrite E, Hp, <- E. destruct pt; [congruence|]. exact (pscan_P _ false false Ho).
Qed.

(* one byte of the scan, read backwards *)
Lemma pscan_cons c p st al w w' : pscan (c :: p) st al w = Some w' ->
  (c = dot /\ st = false /\ pscan p true false w = Some w') \/
  (is c dot = false /\ al = false /\ okc c = true /\
     ((c = gt /\ st = true /\ p = [] /\ w' = true) \/
      (c = star /\ st = true /\ pscan p false true true = Some w') \/
      (litc c = true /\ pscan p false false w = Some w'))).
Proof.
  cbn [pscan]. destruct (is c dot) eqn:Ed.
  - destruct st; [discriminate|]. left. auto using is_true_eq.
  - destruct al; [discriminate|]. cbn [orb]. destruct (badc c) eqn:Eb; [discriminate|].
    intros H. right. repeat split; [apply okc_intro; assumption|].
    destruct (is c gt) eqn:Eg; [|destruct (is c star) eqn:Es].
    + destruct st; [|discriminate]. destruct p; [|discriminate]. injection H as <-. left. auto using is_true_eq.
    + destruct st; [|discriminate]. right; left. auto using is_true_eq.
    + right; right. split; [apply litc_intro; assumption|exact H].
Qed.

(* at a token start, and inside a token: after the bytes t of a literal token, or (al) after a '*' *)
Lemma pscan_sound : forall p w w', (forall q, p <> q ++ [dot]) ->
  (pscan p true false w = Some w' -> p <> [] ->
     exists pt, wf_pat pt /\ p = join pt /\ w' = w || has_wild pt)
  /\ (forall al, pscan p false al w = Some w' ->
     exists t pt, (al = true -> t = []) /\ forallb litc t = true /\ tok_chars_ok t /\ owf pt /\
                  p = t ++ P pt /\ w' = w || has_wild pt).
Proof.
  induction p as [|c p IH]; intros w w' Hl.
  - split; [congruence|]. intros al H. injection H as <-. exists [], [].
    do 3 (split; [reflexivity|]). split; [split; constructor|]. split; [reflexivity|symmetry; apply orb_false_r].
  - assert (Hl' : forall q, p <> q ++ [dot]) by (intros q E; apply (Hl (c :: q)); rewrite E; reflexivity).
    split.
    + intros H _.
      destruct (pscan_cons _ _ _ _ _ _ H)
        as [(_ & Hst & _)|(_ & _ & Hoc & [(-> & _ & -> & ->)|[(-> & _ & H')|(Hlc & H')]])]; [discriminate| | |].
      * exists [[gt]]. split; [|split; [reflexivity|destruct w; reflexivity]].
        split; [discriminate|split; [left; reflexivity|repeat constructor]].
      * destruct (proj2 (IH true w' Hl') true H') as (t & pt & Ht & _ & _ & Ho & -> & ->).
        rewrite (Ht eq_refl). exists ([star] :: pt).
        split; [split; [discriminate|apply owf_cons; [left; reflexivity|reflexivity|exact Ho]]|].
        split; [rewrite join_cons; reflexivity|destruct w; reflexivity].
      * destruct (proj2 (IH w w' Hl') false H') as (t & pt & _ & Hlt & Hot & Ho & -> & ->).
        assert (Hlit : lit_tok (c :: t)).
        { split; [discriminate|]. cbn [forallb]. fold (litc c). rewrite Hlc. exact Hlt. }
        exists ((c :: t) :: pt).
        split; [split; [discriminate|apply owf_cons; [right; exact Hlit| |exact Ho]]|].
        { unfold tok_chars_ok. cbn [forallb]. rewrite Hoc. exact Hot. }
        split; [rewrite join_cons; reflexivity|rewrite has_wild_lit by exact Hlit; reflexivity].
    + intros al H.
      destruct (pscan_cons _ _ _ _ _ _ H)
        as [(-> & _ & H')|(_ & -> & Hoc & [(_ & Hst & _)|[(_ & Hst & _)|(Hlc & H')]])]; try discriminate Hst.
      * (* a '.': the next token starts, and there is one, as p does not end here *)
        assert (Hpne : p <> []) by (intros ->; exact (Hl [] eq_refl)).
        destruct (proj1 (IH w w' Hl') H' Hpne) as (pt & [Hne Ho] & -> & ->).
        exists [], pt. do 3 (split; [reflexivity|]). split; [exact Ho|]. split; [|reflexivity].
        destruct pt; [congruence|reflexivity].
      * destruct (proj2 (IH w w' Hl') false H') as (t & pt & _ & Hlt & Hot & Ho & -> & ->).
        exists (c :: t), pt. split; [discriminate|]. unfold tok_chars_ok. cbn [forallb]. rewrite Hlc, Hoc.
        do 2 (split; [assumption|]). split; [exact Ho|]. split; reflexivity.
Qed.

Theorem parse_sound : forall p w,
  parse p = Some w -> exists pt, wf_pat pt /\ p = join pt /\ w = has_wild pt.
Proof.
  intros p w H. unfold parse in H. destruct p as [|c p']; [discriminate H|].
  destruct (is (last (c :: p') dot) dot) eqn:El; [discriminate H|].
  assert (Hl : forall q, c :: p' <> q ++ [dot]) by (intros q E; rewrite E, last_last in El; discriminate El).
  apply (proj1 (pscan_sound (c :: p') false w Hl) H). discriminate.
Qed.

Lemma app_nodot_inj : forall t u r r',
  nodot t -> nodot u -> dotstart r -> dotstart r' -> t ++ r = u ++ r' -> t = u /\ r = r'.
Proof.
  induction t as [|c t IH]; intros [|d u] r r' Ht Hu Hr Hr' E; cbn [app] in E.
  - split; [reflexivity|exact E].
  - exfalso. subst r. cbn in Hr. subst d. discriminate Hu.
  - exfalso. subst r'. cbn in Hr'. subst c. discriminate Ht.
  - injection E as -> E. apply andb_prop in Ht as [_ Ht]. apply andb_prop in Hu as [_ Hu].
    destruct (IH u r r' Ht Hu Hr Hr' E) as [-> ->]. split; reflexivity.
Qed.

(* join is injective on lists of non-empty dot-free tokens *)
Lemma join_inj : forall a b, Forall name_tok a -> Forall name_tok b -> join a = join b -> a = b.
Proof.
  induction a as [|t a IH]; intros [|u b] Ha Hb E.
  - reflexivity.
  - exfalso. apply (join_name_nonempty (u :: b) Hb); [discriminate|]. symmetry. exact E.
  - exfalso. apply (join_name_nonempty (t :: a) Ha); [discriminate|exact E].
  - inversion Ha as [|? ? [_ Htnd] Ha']; inversion Hb as [|? ? [_ Hund] Hb']; subst.
    rewrite !join_cons in E.
    destruct (app_nodot_inj _ _ _ _ Htnd Hund (P_dotstart a) (P_dotstart b) E) as [-> EP].
    f_equal. destruct a, b; try discriminate EP; [reflexivity|].
    injection EP as EP. apply IH; assumption.
Qed.

Lemma spec_lit : forall pt st, Forall lit_tok pt -> (spec pt st = true <-> pt = st).
Proof.
  induction pt as [|t pt IH]; intros st Hf.
  - destruct st; split; intros H; try reflexivity; discriminate H.
  - inversion Hf as [|? ? Hl Hf']; subst.
    destruct (lit_not_wild t Hl) as (Hng & Hns & _).
    cbn [spec]. rewrite Hng. destruct st as [|u st]; [split; intros H; discriminate H|].
    rewrite Hns. cbn [orb]. split; intros H.
    + apply andb_prop in H as [H1 H2]. apply leqb_eq in H1. apply (IH st Hf') in H2. subst. reflexivity.
    + injection H as <- <-. rewrite leqb_refl. apply (IH pt Hf'). reflexivity.
Qed.

Lemma nowild_lits : forall pt, valid_pat pt -> has_wild pt = false -> Forall lit_tok pt.
Proof.
  induction pt as [|t pt IH]; intros Hv Hw; [constructor|].
  rewrite has_wild_cons in Hw. apply orb_false_iff in Hw as [Hw1 Hw2].
  apply orb_false_iff in Hw1 as [Hs Hg].
  destruct (valid_pat_cases _ _ Hv) as [[-> _]|[[->|Hl] Hv']]; [discriminate Hg|discriminate Hs|].
  constructor; [exact Hl|apply IH; assumption].
Qed.

(* the no-wildcard branch: plain string comparison is token matching *)
Lemma leqb_join_spec pt st :
  Forall lit_tok pt -> Forall name_tok pt -> Forall name_tok st ->
  leqb (join st) (join pt) = spec pt st.
Proof.
  intros Hl Hpn Hst. apply eq_true_iff_eq. split; intros H.
  - apply leqb_eq in H. apply (spec_lit pt st Hl). symmetry. apply join_inj; assumption.
  - apply (spec_lit pt st Hl) in H. subst st. apply leqb_refl.
Qed.

Theorem match_model_correct : forall pt st,
  wf_pat pt -> st <> [] -> Forall name_tok st ->
  match_model (join pt) (join st) = spec pt st.
Proof.
  intros pt st Hwf Hsne Hst. pose proof Hwf as (Hne & Hv & Hc).
  unfold match_model. rewrite (parse_join pt Hwf). destruct (has_wild pt) eqn:Ew.
  - apply pmatch_spec; assumption.
  - apply leqb_join_spec; [apply nowild_lits; assumption|apply owf_name_toks; split; assumption|exact Hst].
Qed.

Theorem invalid_matches_nothing : forall p s, parse p = None -> match_model p s = false.
Proof. intros p s H. unfold match_model. rewrite H. reflexivity. Qed.

Print Assumptions parse_join.
Print Assumptions parse_sound.
Print Assumptions match_model_correct.
Print Assumptions invalid_matches_nothing.

From Coq Require Import String.
Definition ls (s : string) : list ascii := list_ascii_of_string s.
Example ex_parse1 : parse (ls "a.*.>") = Some true. Proof. reflexivity. Qed.
Example ex_parse2 : parse (ls "test.model") = Some false. Proof. reflexivity. Qed.
Example ex_parse3 : parse (ls "te*") = None. Proof. reflexivity. Qed.
Example ex_parse4 : parse (ls "a.>.b") = None. Proof. reflexivity. Qed.
Example ex_parse5 : parse (ls "a..b") = None. Proof. reflexivity. Qed.
Example ex_parse6 : parse (ls "a.") = None. Proof. reflexivity. Qed.
Example ex_parse7 : parse (ls "a?b") = None. Proof. reflexivity. Qed.
Example ex_match1 : match_model (ls "a.*.>") (ls "a.b.c") = true. Proof. reflexivity. Qed.
Example ex_match2 : match_model (ls "a.*") (ls "a.b.c") = false. Proof. reflexivity. Qed.
Example ex_match3 : match_model (ls "a.b") (ls "a.b") = true. Proof. reflexivity. Qed.
Example ex_match4 : match_model (ls "a.>") (ls "a") = false. Proof. reflexivity. Qed.
Example ex_match5 : match_model (ls "te*") (ls "test") = false. Proof. reflexivity. Qed.
