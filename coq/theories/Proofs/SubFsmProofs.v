(* Theorems about the subscription machine Comp/SubFsm.v, for every state and every operation sequence.
   The machine builds each new state as a record whose every field mentions the previous state, so no proof here
   normalises a state: each helper of the machine gets lemmas about the fields and observations the theorems speak of,
   and the proofs only ever reduce a projection applied to a record ([cbn] with the projections named). *)
From Coq Require Import List Arith Bool Lia Permutation.
From RG Require Import Comp.SubFsm.
Import ListNotations.

Definition cont_ids (l : list cont) : list nat :=
  flat_map (fun k => match k with KGet n | KCall n => [n] | KValidate => [] end) l.
Definition obs_ids (l : list obs) : list nat :=
  flat_map (fun o => match o with OCont n _ => [n] | _ => [] end) l.
Definition has_event (l : list obs) : bool :=
  existsb (fun o => match o with OEvent _ => true | _ => false end) l.

Lemma cont_ids_app a b : cont_ids (a ++ b) = cont_ids a ++ cont_ids b.
Proof. apply flat_map_app. Qed.
Lemma obs_ids_app a b : obs_ids (a ++ b) = obs_ids a ++ obs_ids b.
Proof. apply flat_map_app. Qed.
Lemma has_event_app a b : has_event (a ++ b) = has_event a || has_event b.
Proof. apply existsb_app. Qed.

(* the machine asks of a state only whether it is disposed *)
Lemma sst_case {A} (P : A -> Prop) (x : sst) (a b : A) :
  (x = Disposed -> P a) -> (x <> Disposed -> P b) -> P (match x with Disposed => a | _ => b end).
Proof. destruct x; intros Ha Hb; (apply Ha; reflexivity) || (apply Hb; discriminate). Qed.

Lemma match_live {A} (x : sst) (a b : A) : x <> Disposed -> match x with Disposed => a | _ => b end = b.
Proof. apply sst_case; [contradiction|reflexivity]. Qed.

Definition silent (o : list obs) : Prop := obs_ids o = [] /\ has_event o = false.

Lemma ready_silent l : silent (map OReady l).
Proof. induction l as [|k l IH]; [split; reflexivity|exact IH]. Qed.

Lemma dispose_spec s :
  let '(s', o) := dispose s in
  silent o /\ acbs s' = acbs s /\ direct s' = direct s /\ (st s <> Disposed -> st s' = Disposed /\ SubFsm.eq s' = []).
Proof.
  unfold dispose. destruct (st s); [repeat split; contradiction|..]; (split; [destruct (hasrs s); split; reflexivity|repeat split]).
Qed.

Lemma remove_direct_spec s n :
  let '(s', o) := remove_direct s n in
  silent o /\ acbs s' = acbs s /\
  (0 < direct s <= n -> st s <> Disposed -> direct s' = 0 /\ reg s' = false /\ st s' = Disposed /\ SubFsm.eq s' = []).
Proof.
  unfold remove_direct. destruct (Nat.eqb_spec (direct s) 0) as [E|E]; [repeat split; lia|].
  cbn [direct]. destruct (Nat.ltb_spec 0 (direct s - n)) as [L|L]; [repeat split; lia|].
  match goal with |- context [dispose ?x] => pose proof (dispose_spec x) as H; destruct (dispose x) as [s' o] end.
  destruct H as (Ho & Ha & Hd & Hs). cbn [direct] in Hd.
  split; [exact Ho|]. split; [exact Ha|]. intros H Hst. split; [cbn [direct]; lia|]. split; [reflexivity|exact (Hs Hst)].
Qed.

Lemma unsubscribe_direct_revokes s v : 0 < direct s -> st s <> Disposed ->
  exists s' o, unsubscribe_direct s v = (s', o ++ [OUnsubEvent v]) /\ silent o /\
    direct s' = 0 /\ reg s' = false /\ st s' = Disposed /\ SubFsm.eq s' = [].
Proof.
  intros Hd Hst. unfold unsubscribe_direct. destruct (Nat.ltb_spec 0 (direct s)) as [_|]; [|lia].
  pose proof (remove_direct_spec s (direct s)) as H. destruct (remove_direct s (direct s)) as [s' o].
  exists s', o. split; [reflexivity|]. split; [apply H|]. apply H; [lia|exact Hst].
Qed.

Lemma load_access_uncached s k : acc s = None ->
  exists s' o, load_access s k = (s', o, None) /\ silent o /\
    acc s' = None /\ qR s' = qR s /\ fCalled s' = true /\ acbs s' = acbs s ++ [k].
Proof.
  intros E. unfold load_access. rewrite E.
  destruct (fCalled s) eqn:F; eexists; eexists; (split; [reflexivity|]); repeat split; assumption.
Qed.

Lemma handle_reaccess_armed s : direct s <> 0 ->
  exists s' o, handle_reaccess s = (s', o) /\ silent o /\
    acc s' = None /\ qR s' = true /\ fCalled s' = true /\ acbs s' = acbs s ++ [KValidate].
Proof.
  intros Hd. unfold handle_reaccess. cbn [direct]. destruct (Nat.eqb_spec (direct s) 0) as [|_]; [contradiction|].
  match goal with |- context [load_access ?x KValidate] =>
    destruct (load_access_uncached x KValidate eq_refl) as (s' & o & -> & H) end.
  exists s', o. split; [reflexivity|exact H].
Qed.

(* the deferred handleReaccess of unqueueEvents with nothing subscribed: at most the cached answer and the reminder go *)
Lemma deferred_reaccess_idle s : direct s = 0 ->
  exists s', (if fReacc s then handle_reaccess s else (s, [])) = (s', []) /\
    SubFsm.eq s' = SubFsm.eq s /\ direct s' = 0 /\ reg s' = reg s /\ st s' = st s.
Proof.
  intros Hd. unfold handle_reaccess. cbn [direct]. rewrite Hd.
  destruct (fReacc s); eexists; (split; [reflexivity|]); repeat split; exact Hd.
Qed.

Lemma unqueue_still_held s (b : bool) : (if b then qR s else qL s) = true -> snd (unqueue s b) = [].
Proof. intros H. unfold unqueue, queueing. destruct b; cbn [qL qR] in H |- *; rewrite H; reflexivity. Qed.

Lemma unqueue_nothing_held : forall s b, direct s = 0 -> SubFsm.eq s = [] ->
  has_event (snd (unqueue s b)) = false /\ direct (fst (unqueue s b)) = 0 /\ reg (fst (unqueue s b)) = reg s /\ st (fst (unqueue s b)) = st s.
Proof.
  intros s b Hd He. unfold unqueue.
  match goal with |- context [queueing ?x] => set (s1 := x) end.
  destruct (queueing s1); [repeat split; exact Hd|].
  destruct (deferred_reaccess_idle s1 Hd) as (s2 & -> & He2 & H). destruct (queueing s2); [split; [reflexivity|exact H]|].
  rewrite He2. change (SubFsm.eq s1) with (SubFsm.eq s). rewrite He. split; [reflexivity|exact H].
Qed.

(* the answer step with its states folded: [s0] has only counted the answer, [s1] has also stored it and emptied the list
   of waiting continuations *)
Lemma step_answer s a : exists s0 s1,
  step s (OpAnswer a) =
    (if outst s =? 0 then (s, []) else match st s with Disposed => (s0, []) | _ => run_conts s1 (acbs s) a end) /\
  acbs s0 = acbs s /\ acbs s1 = [] /\ st s1 = st s /\ direct s1 = direct s.
Proof. cbn [step st acbs]. eexists. eexists. split; [reflexivity|]. repeat split. Qed.

(* C06: while a re-access check is pending, no operation but the answer delivers an event to the client *)
Theorem pending_recheck_blocks_events : forall s o,
  qR s = true -> (forall a, o <> OpAnswer a) -> has_event (snd (step s o)) = false.
Proof.
  intros s o Hq Hna. assert (Hqq : queueing s = true) by (unfold queueing; rewrite Hq; apply orb_true_r).
  destruct o as [k|k|k| | | |e| |a| |n]; [..|exfalso; exact (Hna a eq_refl)| |]; cbn [step].
  1, 2: unfold load_access; destruct (acc s); [reflexivity|]; destruct (fCalled s); reflexivity.
  - destruct (2 <=? sst_num (st s)); reflexivity.
  - apply sst_case; intros _; [reflexivity|apply ready_silent].
  - destruct (st s); reflexivity.
  - destruct (st s); try reflexivity; rewrite unqueue_still_held by exact Hq; reflexivity.
  - destruct (negb (hasrs s)); [reflexivity|]. rewrite Hqq. reflexivity.
  - apply sst_case; intros _; [reflexivity|]. rewrite Hqq. reflexivity.
  - destruct (reg s); [|reflexivity]. destruct (256 <=? direct s); reflexivity.
  - destruct (negb (reg s) || (direct s <? n)); [reflexivity|].
    pose proof (remove_direct_spec s n) as H. destruct (remove_direct s n) as [s' o].
    exact (proj2 (proj1 H)).
Qed.

(* C04 / C06: a re-access trigger that is handled drops the cached verdict, arms the guard and leaves an access request
   outstanding whose answer will be validated *)
Theorem trigger_drops_verdict_and_arms_guard : forall s,
  st s <> Disposed -> queueing s = false -> 0 < direct s ->
  let s' := fst (step s OpReaccess) in
  acc s' = None /\ qR s' = true /\ fCalled s' = true /\ In KValidate (acbs s').
Proof.
  intros s Hst Hq Hd. cbn [step]. rewrite match_live, Hq by assumption.
  destruct (handle_reaccess_armed s) as (s' & o & -> & _ & A & B & C & D); [lia|].
  cbn [fst]. rewrite D. repeat split; try assumption. apply in_elt.
Qed.

(* C04 / C06: ... and a trigger that arrives while the subscription is busy is remembered, not lost *)
Theorem trigger_while_busy_is_deferred : forall s,
  st s <> Disposed -> queueing s = true -> fReacc (fst (step s OpReaccess)) = true /\ snd (step s OpReaccess) = [].
Proof. intros s Hst Hq. cbn [step]. rewrite match_live, Hq by assumption. split; reflexivity. Qed.

(* C06: a non-grant verdict of the re-check revokes every direct subscription with one unsubscribe event carrying the
   reason, unregisters the subscription and delivers none of the held events *)
Theorem nongrant_revokes_all : forall s a,
  st s <> Disposed -> 0 < outst s -> acbs s = [KValidate] -> 0 < direct s -> can_get a <> VOk ->
  let '(s', o) := step s (OpAnswer a) in
  In (OUnsubEvent (can_get a)) o /\ has_event o = false /\ direct s' = 0 /\ reg s' = false /\ st s' = Disposed.
Proof.
  intros s a Hst Ho Hk Hd Hg. destruct (step_answer s a) as (s0 & s1 & -> & _ & _ & Hst1 & Hd1).
  destruct (Nat.eqb_spec (outst s) 0) as [H0|_]; [lia|]. rewrite match_live, Hk by assumption. cbn [run_conts run_cont].
  rewrite <- Hst1 in Hst. rewrite <- Hd1 in Hd.
  destruct (unsubscribe_direct_revokes s1 (can_get a) Hd Hst) as (s2 & o1 & Hu & [_ Ho1] & Hd2 & Hr2 & Hs2 & Hq2).
  replace (match can_get a with VOk => (s1, []) | v => unsubscribe_direct s1 v end) with (s2, o1 ++ [OUnsubEvent (can_get a)])
    by (destruct (can_get a); congruence).
  (* the unqueue that follows finds nothing to deliver: the subscription is disposed, its queue is empty *)
  destruct (unqueue_nothing_held s2 false Hd2 Hq2) as (He3 & Hd3 & Hr3 & Hs3). destruct (unqueue s2 false) as [s3 o3].
  cbn [fst snd] in *. rewrite app_nil_r. repeat split; try congruence.
  - apply in_or_app. left. apply in_elt.
  - rewrite !has_event_app, Ho1, He3. reflexivity.
Qed.

(* The statement one would want for C04/C06 - every handled trigger is followed by an access request sent after it - is
   FALSE of the unchanged code (recorded finding KF-REACCESS-INFLIGHT): a trigger handled while an access request is in
   flight joins that request; its answer, requested before the trigger, then decides the re-check. *)
Theorem trigger_sends_request_refuted :
  exists ops, let '(s, _) := run init ops in
    st s = Sent /\ queueing s = false /\ 0 < direct s /\ snd (step s OpReaccess) = [] /\
    snd (step (fst (step s OpReaccess)) (OpAnswer AGrant)) = [OCont 1 VOk].
Proof. exists [OpLoaded; OpResources; OpRelease; OpGet 1]. vm_compute. repeat split; try reflexivity; lia. Qed.

(* non-vacuity: a history on which the revocation theorem applies *)
Example revocation_applies :
  let '(s, _) := run init [OpLoaded; OpResources; OpRelease; OpAdd; OpEvent (ECustom 1); OpReaccess; OpEvent (ECustom 2)] in
  st s <> Disposed /\ 0 < outst s /\ acbs s = [KValidate] /\ 0 < direct s /\
  snd (step s (OpAnswer ADeny)) = [ORelease; OUnsubEvent VAccessDenied].
Proof. vm_compute. repeat split; try reflexivity; try lia; discriminate. Qed.

(* an outcome [r] of state [s] that answered exactly the requests [ids] and kept those that wait *)
Definition runs (ids : list nat) (s : sub) (r : sub * list obs) : Prop :=
  obs_ids (snd r) = ids /\ cont_ids (acbs (fst r)) = cont_ids (acbs s).

Lemma runs_app {i1 i2 s s1 o1 s2 o2} : runs i1 s (s1, o1) -> runs i2 s1 (s2, o2) -> runs (i1 ++ i2) s (s2, o1 ++ o2).
Proof. intros [H1 H2] [H3 H4]. split; cbn [fst snd] in *; [rewrite obs_ids_app; congruence|congruence]. Qed.

Local Notation quiet := (runs []).

Lemma remove_direct_quiet s n : quiet s (remove_direct s n).
Proof.
  pose proof (remove_direct_spec s n) as H. destruct (remove_direct s n) as [s' o]. destruct H as (Ho & Ha & _).
  split; cbn [fst snd]; [apply Ho|rewrite Ha; reflexivity].
Qed.

Lemma unsubscribe_direct_quiet s v : quiet s (unsubscribe_direct s v).
Proof.
  unfold unsubscribe_direct. destruct (0 <? direct s); [|split; reflexivity].
  pose proof (remove_direct_quiet s (direct s)) as H. destruct (remove_direct s (direct s)) as [s' o].
  apply (runs_app H (conj eq_refl eq_refl : quiet s' (s', [OUnsubEvent v]))).
Qed.

Lemma process_event_quiet s e : quiet s (process_event s e).
Proof.
  destruct e; cbn [process_event]; [split; reflexivity|].
  match goal with |- context [unsubscribe_direct ?x VDeleted] =>
    pose proof (unsubscribe_direct_quiet x VDeleted) as H; destruct (unsubscribe_direct x VDeleted) end.
  exact H.
Qed.

Lemma handle_reaccess_quiet s : quiet s (handle_reaccess s).
Proof.
  destruct (Nat.eq_dec (direct s) 0) as [Hd|Hd].
  - unfold handle_reaccess. cbn [direct]. rewrite Hd. split; reflexivity.
  - destruct (handle_reaccess_armed s Hd) as (s' & o & -> & Ho & _ & _ & _ & Ha).
    split; cbn [fst snd]; [apply Ho|]. rewrite Ha, cont_ids_app. apply app_nil_r.
Qed.

Lemma drain_events_quiet l : forall s, quiet s (drain_events s l).
Proof.
  induction l as [|e l IH]; intros s; cbn [drain_events]; [split; reflexivity|].
  pose proof (process_event_quiet s e) as H. destruct (process_event s e) as [s1 o1].
  apply sst_case; intros _; [exact H|]. destruct (queueing s1); [exact H|].
  specialize (IH s1). destruct (drain_events s1 l). apply (runs_app H IH).
Qed.

Lemma unqueue_quiet s b : quiet s (unqueue s b).
Proof.
  unfold unqueue.
  match goal with |- context [queueing ?x] => set (s1 := x) end.
  destruct (queueing s1); [split; reflexivity|].
  assert (H : quiet s (if fReacc s1 then handle_reaccess s1 else (s1, []))).
  { destruct (fReacc s1); [exact (handle_reaccess_quiet s1)|split; reflexivity]. }
  destruct (if fReacc s1 then handle_reaccess s1 else (s1, [])) as [s2 o1].
  destruct (queueing s2); [exact H|].
  match goal with |- context [drain_events ?x ?l] =>
    pose proof (drain_events_quiet l x) as H'; destruct (drain_events x l) end.
  apply (runs_app H H').
Qed.

Lemma run_cont_ids s k a : runs (cont_ids [k]) s (run_cont s k a).
Proof.
  destruct k; cbn [run_cont]; try (split; reflexivity).
  assert (H : quiet s (match can_get a with VOk => (s, []) | v => unsubscribe_direct s v end)).
  { destruct (can_get a); try apply unsubscribe_direct_quiet. split; reflexivity. }
  destruct (match can_get a with VOk => (s, []) | v => unsubscribe_direct s v end) as [s1 o1].
  pose proof (unqueue_quiet s1 false) as H'. destruct (unqueue s1 false). apply (runs_app H H').
Qed.

Lemma run_conts_ids ks : forall s a, runs (cont_ids ks) s (run_conts s ks a).
Proof.
  induction ks as [|k ks IH]; intros s a; cbn [run_conts]; [split; reflexivity|].
  pose proof (run_cont_ids s k a) as H. destruct (run_cont s k a) as [s1 o1].
  specialize (IH s1 a). destruct (run_conts s1 ks a).
  change (k :: ks) with ([k] ++ ks). rewrite cont_ids_app. exact (runs_app H IH).
Qed.

Definition op_ids (o : op) : list nat := match o with OpGet k | OpCall k => [k] | _ => [] end.

Lemma step_ids s o :
  Permutation (obs_ids (snd (step s o)) ++ cont_ids (acbs (fst (step s o)))) (cont_ids (acbs s) ++ op_ids o).
Proof.
  assert (Hq : forall r, quiet s r -> Permutation (obs_ids (snd r) ++ cont_ids (acbs (fst r))) (cont_ids (acbs s) ++ [])).
  { intros r [-> ->]. rewrite app_nil_r. reflexivity. }
  destruct o as [k|k|k| | | |e| |a| |n].
  3-8, 10-11: apply Hq; cbn [step].  (* this leaves the answer for the end *)
  1, 2: cbn [step op_ids]; unfold load_access; destruct (acc s) as [a|]; [apply Permutation_cons_append|];
        destruct (fCalled s); cbn [fst snd acbs fCalled]; rewrite cont_ids_app; reflexivity.
  - destruct (2 <=? sst_num (st s)); split; reflexivity.
  - apply sst_case; intros _; split; try reflexivity. apply ready_silent.
  - destruct (st s); split; reflexivity.
  - destruct (st s); try (split; reflexivity);
      match goal with |- context [unqueue ?x true] => exact (unqueue_quiet x true) end.
  - destruct (negb (hasrs s)); [split; reflexivity|]. destruct (queueing s); [split; reflexivity|apply process_event_quiet].
  - apply sst_case; intros _; [split; reflexivity|]. destruct (queueing s); [split; reflexivity|apply handle_reaccess_quiet].
  - destruct (reg s); [|split; reflexivity]. destruct (256 <=? direct s); split; reflexivity.
  - destruct (negb (reg s) || (direct s <? n)); [split; reflexivity|].
    pose proof (remove_direct_quiet s n) as H. destruct (remove_direct s n). exact H.
  - (* an answer nobody waits for, or one to a disposed subscription, runs nothing *)
    destruct (step_answer s a) as (s0 & s1 & -> & Ha0 & Ha1 & _).
    destruct (outst s =? 0); [apply Hq; split; reflexivity|].
    apply sst_case; intros _; [apply Hq; split; cbn [fst snd]; [|rewrite Ha0]; reflexivity|].
    destruct (run_conts_ids (acbs s) s1 a) as [H1 H2]. rewrite H1, H2, Ha1. reflexivity.
Qed.

Definition all_ids (ops : list op) : list nat := flat_map op_ids ops.

Lemma run_ids : forall ops s,
  Permutation (obs_ids (concat (snd (run s ops))) ++ cont_ids (acbs (fst (run s ops)))) (cont_ids (acbs s) ++ all_ids ops).
Proof.
  induction ops as [|o ops IH]; intros s; cbn [run all_ids flat_map].
  - cbn. rewrite app_nil_r. reflexivity.
  - pose proof (step_ids s o) as Hs. destruct (step s o) as [s1 ob]. cbn [fst snd] in Hs.
    pose proof (IH s1) as Hr. destruct (run s1 ops) as [s2 obs]. cbn [fst snd concat] in Hr |- *.
    rewrite obs_ids_app, <- app_assoc, Hr, app_assoc, Hs, <- app_assoc. reflexivity.
Qed.

(* C07 (exactly-once, the at-most-once half): whatever happens - cached or fresh verdicts, re-access triggers, revocation,
   disposal, late answers - a request continuation never runs twice, and only continuations that were registered run *)
Theorem continuation_at_most_once : forall ops,
  NoDup (all_ids ops) ->
  NoDup (obs_ids (concat (snd (run init ops)))) /\ incl (obs_ids (concat (snd (run init ops)))) (all_ids ops).
Proof.
  intros ops Hnd. pose proof (run_ids ops init) as H. cbn [acbs init cont_ids flat_map app] in H.
  assert (Hn : NoDup (obs_ids (concat (snd (run init ops))) ++ cont_ids (acbs (fst (run init ops))))).
  { eapply Permutation_NoDup; [symmetry; exact H|exact Hnd]. }
  split.
  - revert Hn. generalize (obs_ids (concat (snd (run init ops)))). intros l.
    induction l as [|x l IH]; cbn; intros Hn; [constructor|].
    inversion Hn as [|? ? Hx Hl]; subst. constructor; [intros Hin; apply Hx; apply in_or_app; left; exact Hin|apply IH, Hl].
  - intros x Hx. eapply Permutation_in; [exact H|]. apply in_or_app. left. exact Hx.
Qed.

(* C07 (the other half, where it holds): an access answer that reaches a subscription which is not disposed runs every
   continuation that was waiting - none is left behind *)
Theorem answer_runs_all_waiting : forall s a,
  st s <> Disposed -> 0 < outst s ->
  obs_ids (snd (step s (OpAnswer a))) = cont_ids (acbs s) /\ cont_ids (acbs (fst (step s (OpAnswer a)))) = [].
Proof.
  intros s a Hst Ho. destruct (step_answer s a) as (s0 & s1 & -> & _ & Ha & _).
  destruct (Nat.eqb_spec (outst s) 0) as [H0|_]; [lia|]. rewrite match_live by assumption.
  pose proof (run_conts_ids (acbs s) s1 a) as H. unfold runs in H. rewrite Ha in H. exact H.
Qed.

(* ... but "every registered continuation eventually runs" is FALSE of the unchanged code (recorded finding
   KF-PENDING-DROPPED): a subscription disposed while a request waits for its access answer drops the continuation -
   the request is never answered. *)
Theorem every_continuation_runs_refuted :
  exists ops, NoDup (all_ids ops) /\ all_ids ops = [1] /\
    let '(s, o) := run init ops in obs_ids (concat o) = [] /\ outst s = 0 /\ cont_ids (acbs s) = [1].
Proof. exists [OpGet 1; OpUnsub 1; OpAnswer AGrant]. vm_compute. repeat split; try reflexivity. repeat constructor; intros []. Qed.
