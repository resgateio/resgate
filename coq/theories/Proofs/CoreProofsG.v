(* Small facts about the integrated model Comp/Core.v that no theorem uses: the number of waiting requests is not changed by a
   validation appended to the access callbacks; QSub items counted on a connection queue and what a push adds to the count
   (the count used in the proofs is CoreProofsABC.cntq, the same function); a conjunction with false. *)
From Coq Require Import List Arith Lia Bool.
From RG Require Import Comp.Conv Comp.Core.
Import ListNotations.

Section CoreProofs.
Notation g_AVal := Core.AVal.
Notation g_nreq l := (length (Core.ids_of l)).

Lemma g_nreq_app_val (l : list Core.acbk) : g_nreq (l ++ [g_AVal]) = g_nreq l.
Proof. unfold Core.ids_of. rewrite flat_map_app, app_length. cbn. lia. Qed.
Lemma g_eqb_false_r (b : bool) : b && false = false. Proof. apply andb_false_r. Qed.

Definition g_isq (i : nat) (it : Core.qitem) : bool := match it with Core.QSub j => Nat.eqb j i | _ => false end.
Definition g_cntq (i : nat) (q : list Core.qitem) : nat := length (filter (g_isq i) q).
Lemma g_cntq_app i q1 q2 : g_cntq i (q1 ++ q2) = g_cntq i q1 + g_cntq i q2.
Proof. unfold g_cntq. rewrite filter_app, app_length. reflexivity. Qed.
Lemma g_cntq_push c j x it : g_cntq j (Core.cqueue x) <= g_cntq j (Core.cqueue (Core.push_q x it)) + (if Nat.eqb c c && false then 1 else 0).
Proof. cbn [Core.push_q Core.with_q Core.cqueue]. rewrite g_cntq_app. lia. Qed.

End CoreProofs.
