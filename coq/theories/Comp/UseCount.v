(* C09: use count, MQ subscription and eviction queue of one cache entry
   (rescache.go getSubscription/sendRequest/mqUnsubscribe, eventSubscription.go addCount/removeCount/addSubscriber,
   resourceSubscription.go Unsubscribe/handleEventDelete/processGetResponse). *)
From Coq Require Import List ZArith Lia Bool Arith.
Import ListNotations.
Open Scope Z_scope.

Record entry := {
  present : bool;          (* in Cache.eventSubs *)
  count : Z;               (* EventSubscription.count *)
  mqsub : bool;            (* EventSubscription.mqSub != nil *)
  inq : bool;              (* in Cache.unsubQueue *)
  subs : list nat;         (* ResourceSubscription.subs *)
  pend : list nat;         (* subscribers whose addSubscriber task has not run yet *)
  inflight : nat;          (* sendRequest calls whose answer task has not run yet *)
  requested : bool;        (* a get request was sent for the current incarnation *)
  crashed : bool;          (* timerqueue.Add on an element already queued *)
  get_without_sub : bool   (* ghost: a get request was sent while mqsub = false *)
}.

Definition empty : entry :=
  {| present := false; count := 0; mqsub := false; inq := false; subs := []; pend := []; inflight := 0;
     requested := false; crashed := false; get_without_sub := false |}.

Inductive op :=
| Subscribe (s : nat) (mq_ok : bool)   (* Cache.Subscribe: getSubscription(name,true) then enqueue addSubscriber *)
| Request                              (* Cache.sendRequest: getSubscription(name,false), answer pending *)
| AddSubTask (s : nat)                 (* the addSubscriber closure runs *)
| GetRespErr                           (* get answered with an error: all subscribers released *)
| DeleteEv                             (* delete event: all subscribers released *)
| Unsub (s : nat)                      (* ResourceSubscription.Unsubscribe closure runs *)
| ReqDone                              (* sendRequest answer closure runs *)
| TimerFire.                           (* timerqueue fires: Cache.mqUnsubscribe *)

(* getSubscription's counting part *)
Definition get_sub (e : entry) : entry :=
  if present e then
    {| present := true; count := count e + 1; mqsub := mqsub e;
       inq := if count e =? 0 then false else inq e;            (* addCount: Remove from unsubQueue when count == 0 *)
       subs := subs e; pend := pend e; inflight := inflight e; requested := requested e;
       crashed := crashed e; get_without_sub := get_without_sub e |}
  else
    {| present := true; count := 1; mqsub := false; inq := false; subs := []; pend := []; inflight := 0;
       requested := false; crashed := crashed e; get_without_sub := get_without_sub e |}.

(* removeCount *)
Definition remove_count (e : entry) (n : Z) : entry :=
  let c := count e - n in
  let add := (c =? 0) && negb (n =? 0) in
  {| present := present e; count := c; mqsub := mqsub e;
     inq := if add then true else inq e;
     subs := subs e; pend := pend e; inflight := inflight e; requested := requested e;
     crashed := crashed e || (add && inq e); get_without_sub := get_without_sub e |}.

Definition remove_nat (s : nat) (l : list nat) := filter (fun x => negb (Nat.eqb x s)) l.
Definition memb (s : nat) (l : list nat) := existsb (Nat.eqb s) l.

Definition set_lists (e : entry) (sb pd : list nat) (fl : nat) (rq gw : bool) : entry :=
  {| present := present e; count := count e; mqsub := mqsub e; inq := inq e; subs := sb; pend := pd;
     inflight := fl; requested := rq; crashed := crashed e; get_without_sub := gw |}.

Definition step (e : entry) (o : op) : entry :=
  match o with
  | Subscribe s mq_ok =>
      let e1 := get_sub e in
      if mqsub e1 then set_lists e1 (subs e1) (pend e1 ++ [s]) (inflight e1) (requested e1) (get_without_sub e1)
      else if mq_ok then
        let e2 := {| present := present e1; count := count e1; mqsub := true; inq := inq e1; subs := subs e1;
                     pend := pend e1; inflight := inflight e1; requested := requested e1; crashed := crashed e1;
                     get_without_sub := get_without_sub e1 |} in
        set_lists e2 (subs e2) (pend e2 ++ [s]) (inflight e2) (requested e2) (get_without_sub e2)
      else remove_count e1 1                              (* the event subscription failed: the count is released *)
  | Request => let e1 := get_sub e in set_lists e1 (subs e1) (pend e1) (S (inflight e1)) (requested e1) (get_without_sub e1)
  | AddSubTask s =>
      if memb s (pend e) then
        set_lists e (subs e ++ [s]) (remove_nat s (pend e)) (inflight e) true
                  (get_without_sub e || (negb (requested e) && negb (mqsub e)))
      else e
  | GetRespErr | DeleteEv =>
      let n := Z.of_nat (length (subs e)) in
      let e1 := remove_count e n in set_lists e1 [] (pend e1) (inflight e1) false (get_without_sub e1)
  | Unsub s =>
      (* releases only a registered subscriber (a delete event or failed get already released the others) *)
      if memb s (subs e) then
        let e1 := set_lists e (remove_nat s (subs e)) (pend e) (inflight e) (requested e) (get_without_sub e) in
        remove_count e1 1
      else e
  | ReqDone =>
      match inflight e with
      | O => e
      | S k => remove_count (set_lists e (subs e) (pend e) k (requested e) (get_without_sub e)) 1
      end
  | TimerFire =>
      if inq e then
        if 0 <? count e then
          {| present := present e; count := count e; mqsub := mqsub e; inq := false; subs := subs e; pend := pend e;
             inflight := inflight e; requested := requested e; crashed := crashed e; get_without_sub := get_without_sub e |}
        else {| present := false; count := 0; mqsub := false; inq := false; subs := []; pend := []; inflight := 0;
                requested := false; crashed := crashed e; get_without_sub := get_without_sub e |}
      else e
  end.

(* environment contract for the defect-free theorems: each subscriber id is used once.
   (Unsubscribing an unknown subscriber and an MQ refusing the event subscription are handled by the code.) *)
Definition allowed (e : entry) (o : op) : Prop :=
  match o with
  | Subscribe s ok => memb s (subs e) = false /\ memb s (pend e) = false
  | _ => True
  end.

Definition users (e : entry) : Z := Z.of_nat (length (subs e)) + Z.of_nat (length (pend e)) + Z.of_nat (inflight e).

Record Inv (e : entry) : Prop := {
  i_count : count e = users e;
  i_q1 : inq e = true -> present e = true /\ count e <= 0;
  i_q2 : present e = true -> count e <= 0 -> inq e = true;
  i_absent : present e = false -> users e = 0 /\ mqsub e = false;
  i_nodup : NoDup (subs e) /\ NoDup (pend e) /\ (forall x, In x (subs e) -> ~ In x (pend e));
  i_nocrash : crashed e = false;
  i_mq : (subs e <> [] \/ pend e <> []) -> mqsub e = true;
  i_get : get_without_sub e = false
}.

Lemma memb_in s l : memb s l = true <-> In s l.
Proof.
  unfold memb. rewrite existsb_exists. split.
  - intros (x & Hin & Hx). apply Nat.eqb_eq in Hx. subst. exact Hin.
  - intros H. exists s. split; [exact H|apply Nat.eqb_refl].
Qed.
Lemma memb_false s l : memb s l = false <-> ~ In s l.
Proof. rewrite <- memb_in. destruct (memb s l); split; intros; congruence. Qed.

Lemma remove_notin s l : ~ In s l -> remove_nat s l = l.
Proof.
  unfold remove_nat. induction l as [|x l IH]; intros H; cbn [filter]; [reflexivity|].
  destruct (Nat.eqb_spec x s) as [->|Hne]; cbn [negb].
  - exfalso. apply H. left; reflexivity.
  - rewrite IH; [reflexivity|]. intros Hin. apply H. right; exact Hin.
Qed.
Lemma remove_len s l : NoDup l -> In s l -> S (length (remove_nat s l)) = length l.
Proof.
  induction l as [|x l IH]; intros Hn Hin; [contradiction|].
  inversion Hn as [|? ? Hx Hn']; subst. unfold remove_nat. cbn [filter].
  destruct (Nat.eqb_spec x s) as [->|Hne]; cbn [negb length].
  - fold (remove_nat s l). rewrite remove_notin by exact Hx. reflexivity.
  - destruct Hin as [->|Hin]; [congruence|]. fold (remove_nat s l). rewrite IH; auto.
Qed.
Lemma remove_in s t l : In t (remove_nat s l) -> In t l /\ t <> s.
Proof.
  unfold remove_nat. rewrite filter_In. intros [H1 H2]. split; [exact H1|].
  apply negb_true_iff in H2. apply Nat.eqb_neq in H2. exact H2.
Qed.

Lemma users_nonneg e : 0 <= users e. Proof. unfold users. lia. Qed.

Lemma nodup_snoc (l : list nat) s : NoDup l -> ~ In s l -> NoDup (l ++ [s]).
Proof. intros Hn Hs. apply (NoDup_Add (Add_app s l [])). rewrite app_nil_r. auto. Qed.

Lemma absent_lists e : Inv e -> present e = false -> subs e = [] /\ pend e = [] /\ inflight e = 0%nat.
Proof.
  intros H Hp. destruct (i_absent e H Hp) as [Hu _]. unfold users in Hu.
  rewrite <- !length_zero_iff_nil. lia.
Qed.

Lemma get_sub_inv e : Inv e ->
  let e1 := get_sub e in
  present e1 = true /\ count e1 = users e + 1 /\ inq e1 = false /\ mqsub e1 = mqsub e /\
  subs e1 = subs e /\ pend e1 = pend e /\ inflight e1 = inflight e /\
  crashed e1 = false /\ get_without_sub e1 = false.
Proof.
  intros H. pose proof (users_nonneg e) as Hu0. pose proof H as [Hc Hq1 _ Hab _ Hcr _ Hg].
  unfold get_sub. destruct (present e) eqn:Ep; cbn.
  - rewrite Hc. repeat split; auto.
    destruct (Z.eqb_spec (users e) 0); [reflexivity|]. destruct (inq e); [destruct (Hq1 eq_refl); lia|reflexivity].
  - destruct (absent_lists e H Ep) as (Es & Epd & Ei). destruct (Hab eq_refl) as [Hu Hm].
    rewrite Es, Epd, Ei, Hu, Hm. repeat split; auto.
Qed.

Lemma step_subscribe e s ok : ok = true \/ mqsub (get_sub e) = true -> step e (Subscribe s ok) =
  let e1 := get_sub e in
  {| present := true; count := count e1; mqsub := true; inq := inq e1; subs := subs e1; pend := pend e1 ++ [s];
     inflight := inflight e1; requested := requested e1; crashed := crashed e1; get_without_sub := get_without_sub e1 |}.
Proof.
  intros H. cbn [step]. assert (Hp : present (get_sub e) = true) by (unfold get_sub; destruct (present e); reflexivity).
  destruct (mqsub (get_sub e)) eqn:Em.
  - unfold set_lists; cbn; rewrite ?Hp, ?Em; reflexivity.
  - destruct H as [->|H]; [|discriminate H]. unfold set_lists; cbn; rewrite ?Hp; reflexivity.
Qed.

Lemma subscribe_inv e s ok : Inv e -> allowed e (Subscribe s ok) -> ok = true \/ mqsub (get_sub e) = true ->
  Inv (step e (Subscribe s ok)).
Proof.
  intros H [Hs1 Hs2] Hok. apply memb_false in Hs1. apply memb_false in Hs2.
  rewrite (step_subscribe e s ok Hok). cbn zeta.
  destruct (get_sub_inv e H) as (_ & Hc1 & Hq & _ & Hs & Hpd & Hf & Hcr & Hg).
  destruct (i_nodup e H) as (Hn1 & Hn2 & Hn3). pose proof (users_nonneg e) as Hu0.
  constructor; cbn; rewrite ?Hc1, ?Hq, ?Hs, ?Hpd, ?Hf, ?Hcr, ?Hg; try reflexivity; try discriminate.
  - unfold users. cbn. rewrite app_length. cbn. lia.
  - lia.
  - split; [exact Hn1|]. split; [apply nodup_snoc; assumption|].
    intros x Hx Hin. apply in_app_or in Hin as [Hin|[->|[]]]; [apply (Hn3 x Hx Hin)|contradiction].
Qed.

Lemma request_inv e : Inv e -> Inv (step e Request).
Proof.
  intros H. cbn [step]. unfold set_lists.
  destruct (get_sub_inv e H) as (Hp & Hc1 & Hq & Hm & Hs & Hpd & Hf & Hcr & Hg). pose proof (users_nonneg e) as Hu0.
  constructor; cbn; rewrite ?Hp, ?Hc1, ?Hq, ?Hm, ?Hs, ?Hpd, ?Hf, ?Hcr, ?Hg; try reflexivity; try discriminate.
  - unfold users. cbn. lia.
  - lia.
  - apply (i_nodup e H).
  - apply (i_mq e H).
Qed.

(* The addSubscriber task moves a subscriber from [pend] to [subs]; the get request it may send finds the MQ
   subscription established. *)
Lemma addsub_inv e s : Inv e -> Inv (step e (AddSubTask s)).
Proof.
  intros H. cbn [step]. destruct (memb s (pend e)) eqn:Em; [|exact H].
  apply memb_in in Em. destruct H as [Hc Hq1 Hq2 Hab (Hn1 & Hn2 & Hn3) Hcr Hmq Hg].
  assert (Hms : mqsub e = true) by (apply Hmq; right; intros E; rewrite E in Em; contradiction).
  unfold set_lists. constructor; cbn; auto.
  - unfold users in *. cbn. rewrite app_length. cbn. pose proof (remove_len s (pend e) Hn2 Em). lia.
  - intros Hp. destruct (Hab Hp). congruence.
  - split; [apply nodup_snoc; [exact Hn1|]|split; [apply NoDup_filter; exact Hn2|]].
    + intros Hin. apply (Hn3 s Hin Em).
    + intros x Hx Hin. apply remove_in in Hin as [Hin Hne].
      apply in_app_or in Hx as [Hx|[->|[]]]; [apply (Hn3 x Hx Hin)|congruence].
  - rewrite Hg, Hms. destruct (requested e); reflexivity.
Qed.

(* Releasing [n] counts together with the users that held them: the shape shared by a failed get, a delete event,
   Unsubscribe and the completion of a request. The entry enters the eviction queue exactly when its last user
   leaves, and it cannot be queued already, since it had a user. *)
Lemma release_inv e sb pd fl rq n : Inv e -> 0 <= n ->
  Z.of_nat (length sb) + Z.of_nat (length pd) + Z.of_nat fl = users e - n ->
  NoDup sb /\ NoDup pd /\ (forall x, In x sb -> ~ In x pd) ->
  (sb <> [] \/ pd <> [] -> mqsub e = true) ->
  Inv (remove_count (set_lists e sb pd fl rq (get_without_sub e)) n).
Proof.
  intros [Hc Hq1 Hq2 Hab _ Hcr _ Hg] Hn Hu Hnd Hmq.
  unfold remove_count, set_lists. cbn. set (add := (count e - n =? 0) && negb (n =? 0)).
  assert (Hadd : add = true -> count e - n = 0 /\ present e = true /\ inq e = false).
  { intros E. apply andb_prop in E as [E1 E2]. apply Z.eqb_eq in E1. apply negb_true_iff, Z.eqb_neq in E2.
    split; [exact E1|]. split.
    - destruct (present e); [reflexivity|]. destruct (Hab eq_refl). lia.
    - destruct (inq e); [destruct (Hq1 eq_refl); lia|reflexivity]. }
  assert (Hnadd : add = false -> count e - n <= 0 -> n = 0).
  { intros E Hle. apply andb_false_iff in E as [E|E].
    - apply Z.eqb_neq in E. lia.
    - apply negb_false_iff, Z.eqb_eq in E. exact E. }
  constructor; cbn; auto.
  - unfold users. cbn. lia.
  - destruct add; [destruct Hadd as (? & ? & ?); auto; split; [assumption|lia]|].
    intros Hi. destruct (Hq1 Hi). split; [assumption|lia].
  - intros Hp Hle. destruct add; [reflexivity|]. apply Hq2; [exact Hp|]. rewrite (Hnadd eq_refl Hle) in Hle. lia.
  - intros Hp. destruct (Hab Hp). split; [unfold users; cbn; lia|assumption].
  - rewrite Hcr. destruct add; [destruct Hadd as (_ & _ & ->); reflexivity|reflexivity].
Qed.

Lemma release_all_inv e : Inv e -> Inv (step e GetRespErr).
Proof.
  intros H. apply (release_inv e [] (pend e) (inflight e) false (Z.of_nat (length (subs e))) H).
  - lia.
  - unfold users. cbn. lia.
  - split; [constructor|]. split; [apply (i_nodup e H)|intros x []].
  - intros [Hx|Hx]; [congruence|]. apply (i_mq e H). right. exact Hx.
Qed.

Lemma unsub_inv e s : Inv e -> Inv (step e (Unsub s)).
Proof.
  intros H. cbn [step]. destruct (memb s (subs e)) eqn:Hs; [|exact H].
  apply memb_in in Hs. destruct (i_nodup e H) as (Hn1 & Hn2 & Hn3).
  apply (release_inv e _ _ _ _ 1 H).
  - lia.
  - unfold users. pose proof (remove_len s (subs e) Hn1 Hs). lia.
  - split; [apply NoDup_filter, Hn1|]. split; [exact Hn2|].
    intros x Hx. apply remove_in in Hx as [Hx _]. apply Hn3, Hx.
  - intros _. apply (i_mq e H). left. intros E. rewrite E in Hs. contradiction.
Qed.

Lemma reqdone_inv e : Inv e -> Inv (step e ReqDone).
Proof.
  intros H. cbn [step]. destruct (inflight e) as [|k] eqn:Ek; [exact H|].
  apply (release_inv e _ _ _ _ 1 H).
  - lia.
  - unfold users. rewrite Ek. lia.
  - apply (i_nodup e H).
  - apply (i_mq e H).
Qed.

(* A refused event subscription gives the count it took back at once: for the entry it is a request that is
   answered immediately. *)
Lemma refused_subscribe e s : mqsub (get_sub e) = false -> step e (Subscribe s false) = step (step e Request) ReqDone.
Proof. intros Em. cbn [step]. rewrite Em. reflexivity. Qed.

(* The state before the entry exists and after the timer has removed it. *)
Lemma cleared_inv cr gw : cr = false -> gw = false ->
  Inv {| present := false; count := 0; mqsub := false; inq := false; subs := []; pend := []; inflight := 0;
         requested := false; crashed := cr; get_without_sub := gw |}.
Proof.
  intros -> ->. constructor; cbn; auto; try discriminate.
  - split; [constructor|]. split; [constructor|]. intros x [].
  - intros [H|H]; congruence.
Qed.

Lemma empty_inv : Inv empty.
Proof. apply cleared_inv; reflexivity. Qed.

Lemma timer_inv e : Inv e -> Inv (step e TimerFire).
Proof.
  intros H. cbn [step]. destruct (inq e) eqn:Ei; [|exact H].
  destruct (i_q1 e H Ei) as [_ Hle]. destruct (Z.ltb_spec 0 (count e)) as [Hlt|_]; [lia|].
  apply cleared_inv; [apply (i_nocrash e H)|apply (i_get e H)].
Qed.

Lemma step_inv e o : Inv e -> allowed e o -> Inv (step e o).
Proof.
  intros H Ha. destruct o as [s ok| |s| | |s| |].
  - destruct (ok || mqsub (get_sub e)) eqn:Eok.
    + apply subscribe_inv; [exact H|exact Ha|apply orb_true_iff, Eok].
    + apply orb_false_iff in Eok as [-> Em]. rewrite (refused_subscribe e s Em).
      apply reqdone_inv, request_inv, H.
  - apply request_inv, H.
  - apply addsub_inv, H.
  - apply release_all_inv, H.
  - apply (release_all_inv e H).  (* a delete event and a failed get share their branch of [step] *)
  - apply unsub_inv, H.
  - apply reqdone_inv, H.
  - apply timer_inv, H.
Qed.

Fixpoint wf (e : entry) (ops : list op) : Prop :=
  match ops with [] => True | o :: ops' => allowed e o /\ wf (step e o) ops' end.
Definition run (ops : list op) : entry := fold_left step ops empty.

Theorem run_inv : forall ops, wf empty ops -> Inv (run ops).
Proof.
  intros ops. unfold run. generalize empty empty_inv.
  induction ops as [|o ops IH]; intros e Hi Hwf; cbn; [exact Hi|].
  destruct Hwf as [Ha Hwf]. apply IH; [apply step_inv; assumption|exact Hwf].
Qed.

(* C09: under the contract, in every reachable state
   - the count is exactly the number of users, the timer queue never panics,
   - a get is only ever requested under an established MQ subscription,
   - an entry with users is never in line for eviction, an entry without users always is,
   - firing the timer on an unused entry removes it (gauges back to zero). *)
Theorem cache_lifecycle : forall ops, wf empty ops ->
  let e := run ops in
  count e = users e /\ crashed e = false /\ get_without_sub e = false /\
  (0 < users e -> inq e = false /\ present e = true) /\
  (present e = true -> users e = 0 -> inq e = true /\ present (step e TimerFire) = false).
Proof.
  intros ops Hwf e. destruct (run_inv ops Hwf) as [Hc Hq1 Hq2 Hab Hn Hcr Hmq Hg]. fold e in Hc, Hq1, Hq2, Hab, Hn, Hcr, Hmq, Hg.
  repeat split; auto.
  - destruct (inq e) eqn:Ei; [|reflexivity]. destruct (Hq1 eq_refl). lia.
  - destruct (present e) eqn:Ep; [reflexivity|]. destruct (Hab eq_refl). lia.
  - apply Hq2; [assumption|lia].
  - cbn [step]. rewrite (Hq2 H) by lia. destruct (Z.ltb_spec 0 (count e)); [lia|reflexivity].
Qed.
Print Assumptions cache_lifecycle.

(* non-vacuity: two subscribers, a request in flight, everything released, eviction *)
Example ok_run :
  let e := run [Subscribe 1 true; AddSubTask 1; Request; Subscribe 2 true; AddSubTask 2; ReqDone; Unsub 1; Unsub 2; TimerFire] in
  (present e, count e, crashed e) = (false, 0, false).
Proof. reflexivity. Qed.

(* P4 repaired: the delete event released subscriber 1, its late Unsubscribe is a no-op;
   the new subscriber holds a count of 1 and the entry is not queued for eviction *)
Example fixed_P4 :
  let e := run [Subscribe 1 true; AddSubTask 1; DeleteEv; Unsub 1; Subscribe 2 true; AddSubTask 2] in
  (count e, subs e, inq e) = (1, [2%nat], false).
Proof. reflexivity. Qed.

(* P27 repaired: the MQ refuses the event subscription (subject too long): the count is released,
   the fresh entry is queued for eviction and the timer removes it *)
Example fixed_P27 :
  let e := run [Subscribe 1 false] in
  (present e, count e, users e, inq e) = (true, 0, 0, true) /\ present (step e TimerFire) = false.
Proof. split; reflexivity. Qed.

Theorem unsub_nonmember_noop : forall e s, memb s (subs e) = false -> step e (Unsub s) = e.
Proof. intros e s H. cbn [step]. rewrite H. reflexivity. Qed.

(* A Subscribe with mq_ok = false on an entry whose MQ subscription is already established never asks the MQ:
   it succeeds exactly like one with mq_ok = true (one more user, one more count) *)
Theorem subscribe_established_ignores_mq : forall e s, Inv e -> mqsub e = true ->
  step e (Subscribe s false) = step e (Subscribe s true) /\
  users (step e (Subscribe s false)) = users e + 1 /\ count (step e (Subscribe s false)) = count e + 1.
Proof.
  intros e s H Hm.
  destruct (get_sub_inv e H) as (_ & Hc1 & _ & Hm1 & Hs & Hpd & Hf & _). rewrite Hm in Hm1.
  rewrite (step_subscribe e s false (or_intror Hm1)), (step_subscribe e s true (or_introl eq_refl)).
  split; [reflexivity|]. unfold users. cbn. rewrite Hc1, (i_count e H), Hs, Hpd, Hf, app_length. cbn. unfold users. lia.
Qed.

(* A refused event subscription (which presupposes that none is established yet: mqsub e = false) leaves the number
   of users and the count unchanged, for a pre-existing entry as well as for an absent one (which becomes present
   with count 0).  Inv is only needed for the absent entry (count e = users e = 0); the freshness of s is not used. *)
Theorem failed_subscribe_releases : forall e s, Inv e -> mqsub e = false ->
  memb s (subs e) = false -> memb s (pend e) = false ->
  users (step e (Subscribe s false)) = users e /\ count (step e (Subscribe s false)) = count e /\
  present (step e (Subscribe s false)) = true.
Proof.
  intros e s H Hm _ _. cbn [step].
  destruct (get_sub_inv e H) as (Hp & Hc1 & _ & Hm1 & Hs & Hpd & Hf & _). rewrite Hm1, Hm.
  unfold users. cbn. rewrite Hp, Hc1, (i_count e H), Hs, Hpd, Hf. unfold users. repeat split. lia.
Qed.
