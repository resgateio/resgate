(* C18: one request of the NATS adapter (nats/nats.go SendRequest, listener,
   parseMeta, onTimeout). Timer expiry is split into "expire" (Stop/Remove now return false, the callback
   goroutine exists) and "run" (the callback takes Client.mu), so every race the mutex decides is a schedule. *)
From Coq Require Import List Arith Lia Bool.
Import ListNotations.

Inductive tstate := TNone | TArmed | TFired.
Inductive outcome := Reply | NoResponders | Timeout | SendError.

Record req := {
  sent : bool;
  pending : bool;        (* entry in Client.mqReqs *)
  in_tq : bool;          (* element of the default timerqueue *)
  tq_fired : bool;       (* timerqueue popped it; onTimeout goroutine not yet in the critical section *)
  has_timer : bool;      (* rc.t != nil *)
  timer : tstate;        (* state of rc.t *)
  done : list outcome    (* invocations of the completion callback *)
}.
Definition init : req :=
  {| sent := false; pending := false; in_tq := false; tq_fired := false; has_timer := false; timer := TNone; done := [] |}.

Inductive act := Send | SendFail | MsgReply | Msg503 | MsgPre | TqExpire | TqRun | TimerExpire | TimerRun.

Definition complete (r : req) (o : outcome) : req :=   (* delete from mqReqs, tq.Remove, rc.t.Stop, callback *)
  {| sent := sent r; pending := false; in_tq := false; tq_fired := tq_fired r; has_timer := has_timer r;
     timer := (match timer r with TArmed => TNone | t => t end); done := done r ++ [o] |}.

Definition on_timeout (r : req) : req := if pending r then complete r Timeout else r.

Definition step (r : req) (a : act) : req :=
  match a with
  | Send => if sent r then r else
      {| sent := true; pending := true; in_tq := true; tq_fired := false; has_timer := false; timer := TNone; done := done r |}
  | SendFail => if sent r then r else      (* subscribing or publishing failed: the callback gets the error, nothing is registered *)
      {| sent := true; pending := false; in_tq := false; tq_fired := false; has_timer := false; timer := TNone; done := done r ++ [SendError] |}
  | MsgReply => if pending r then complete r Reply else r
  | Msg503 => if pending r then complete r NoResponders else r
  | MsgPre =>
      if pending r then
        let removed := if has_timer r then (match timer r with TArmed => true | _ => false end) else in_tq r in
        if removed then
          {| sent := sent r; pending := true; in_tq := false; tq_fired := tq_fired r; has_timer := true; timer := TArmed; done := done r |}
        else
          {| sent := sent r; pending := true; in_tq := in_tq r; tq_fired := tq_fired r; has_timer := has_timer r; timer := timer r; done := done r |}
      else r
  | TqExpire => if in_tq r then
      {| sent := sent r; pending := pending r; in_tq := false; tq_fired := true; has_timer := has_timer r; timer := timer r; done := done r |}
      else r
  | TqRun => if tq_fired r then
      on_timeout {| sent := sent r; pending := pending r; in_tq := in_tq r; tq_fired := false; has_timer := has_timer r; timer := timer r; done := done r |}
      else r
  | TimerExpire => match timer r with
      | TArmed => {| sent := sent r; pending := pending r; in_tq := in_tq r; tq_fired := tq_fired r; has_timer := has_timer r; timer := TFired; done := done r |}
      | _ => r end
  | TimerRun => match timer r with
      | TFired => on_timeout {| sent := sent r; pending := pending r; in_tq := in_tq r; tq_fired := tq_fired r; has_timer := has_timer r; timer := TNone; done := done r |}
      | _ => r end
  end.

Definition run (l : list act) : req := fold_left step l init.

(* some time-out path is still alive *)
Definition live (r : req) : bool :=
  in_tq r || tq_fired r || (match timer r with TNone => false | _ => true end).

(* The three phases of a request: not yet sent; waiting, with a time-out path alive; completed, exactly once. *)
Record Inv (r : req) : Prop := {
  i_unsent : sent r = false -> pending r = false /\ done r = [];
  i_pending : pending r = true -> done r = [] /\ live r = true;
  i_done : sent r = true -> pending r = false -> length (done r) = 1
}.

Lemma init_inv : Inv init.
Proof. constructor; cbn; intros; auto; discriminate. Qed.

(* Only the time-out machinery changes, and a pending request keeps a live path. *)
Lemma inv_timers r r' : Inv r -> sent r' = sent r -> pending r' = pending r -> done r' = done r ->
  (pending r = true -> live r' = true) -> Inv r'.
Proof.
  intros [H1 H2 H3] Hs Hp Hd Hl. constructor; rewrite ?Hs, ?Hp, ?Hd.
  - exact H1.
  - intros H. split; [apply H2, H|apply Hl, H].
  - exact H3.
Qed.

(* A reply or a time-out callback completes the request if it is still pending and is ignored otherwise.
   [r'] is [r] up to the time-out machinery, which [complete] does not look at. *)
Lemma settle_inv r r' o : Inv r -> sent r' = sent r -> pending r' = pending r -> done r' = done r ->
  Inv (if pending r' then complete r' o else r').
Proof.
  intros H Hs Hp Hd. destruct (pending r') eqn:Hp'; [|apply (inv_timers r); congruence].
  destruct H as [H1 H2 _]. constructor; cbn; rewrite ?Hs, Hd.
  - intros E. destruct (H1 E). congruence.
  - discriminate.
  - intros _ _. destruct H2 as [-> _]; [congruence|reflexivity].
Qed.

Lemma step_inv r a : Inv r -> Inv (step r a).
Proof.
  intros H. destruct a; cbn [step].
  - destruct (sent r) eqn:Hs; [exact H|]. destruct (i_unsent r H Hs) as [_ Hd].
    constructor; cbn; intros; auto; discriminate.
  - destruct (sent r) eqn:Hs; [exact H|]. destruct (i_unsent r H Hs) as [_ Hd].
    constructor; cbn; try discriminate. intros _ _. rewrite Hd. reflexivity.
  - apply (settle_inv r); auto.
  - apply (settle_inv r); auto.
  - destruct (pending r) eqn:Hp; [|exact H].
    destruct (if has_timer r then _ else _); apply (inv_timers r); auto; intros _; cbn.
    + apply orb_true_r.
    + apply (i_pending r H Hp).
  - destruct (in_tq r); [apply (inv_timers r); auto|exact H].
  - destruct (tq_fired r); [apply (settle_inv r); auto|exact H].
  - destruct (timer r); try exact H. apply (inv_timers r); auto. intros _. apply orb_true_r.
  - destruct (timer r); try exact H. apply (settle_inv r); auto.
Qed.

Theorem run_inv l : Inv (run l).
Proof.
  unfold run. generalize init_inv. generalize init. induction l as [|a l IH]; intros r H; cbn; [exact H|apply IH, step_inv, H].
Qed.

(* C18: for every interleaving of replies, pre-responses and timer expiries/callbacks, the completion callback
   is invoked at most once; exactly once as soon as the request is no longer pending; and while it is pending a
   time-out path is alive, so silence always ends in a timeout. *)
Theorem completion_exactly_once : forall l,
  let r := run l in
  length (done r) <= 1 /\
  (sent r = true -> pending r = false -> length (done r) = 1) /\
  (pending r = true -> done r = [] /\ live r = true).
Proof.
  intros l r. destruct (run_inv l) as [H1 H2 H3]. fold r in H1, H2, H3.
  split; [|split].
  - destruct (pending r); [destruct (H2 eq_refl) as [-> _]; cbn; lia|].
    destruct (sent r); [rewrite H3; auto|destruct (H1 eq_refl) as [_ ->]; cbn; lia].
  - exact H3.
  - exact H2.
Qed.
Print Assumptions completion_exactly_once.

(* reply racing an expired default timer: the timer callback finds the entry gone *)
Example race1 : done (run [Send; TqExpire; MsgReply; TqRun]) = [Reply]. Proof. reflexivity. Qed.
(* pre-response re-arms, silence then ends in exactly one timeout *)
Example pre_then_silence : done (run [Send; MsgPre; TimerExpire; MsgPre; TimerRun]) = [Timeout]. Proof. reflexivity. Qed.
(* a request that could not be published completes once, with the error; no timeout follows *)
Example pubfail : done (run [SendFail; TqExpire; TqRun; MsgReply]) = [SendError]. Proof. reflexivity. Qed.
(* a late duplicate reply is ignored *)
Example dup : done (run [Send; MsgReply; MsgReply; TqExpire; TqRun]) = [Reply]. Proof. reflexivity. Qed.
