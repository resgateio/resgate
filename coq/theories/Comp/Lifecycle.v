(* C20: the service life-cycle flags (service.go Start/start/Stop, wsConn.go newWSConn, wsHandler.go stopWSHandler,
   mqClient.go handleClosedMQ). Stop is not atomic: it sets [stopping], closes every client socket and waits for the
   connections to be disposed, stops the HTTP server and the messaging client, and only then reports on the stop channel. *)
From Coq Require Import List Arith Bool.
Import ListNotations.

Record svc := {
  running : bool;          (* s.stop != nil: the stop channel exists *)
  stopping : bool;         (* s.stopping *)
  conns : nat;             (* len(s.conns) *)
  reported : list nat;     (* causes sent on the stop channel, oldest first *)
  cached : nat             (* entries of the resource cache (Cache.eventSubs) *)
}.
Definition init : svc := {| running := false; stopping := false; conns := 0; reported := []; cached := 0 |}.

Inductive op :=
| Start
| StopBegin (cause : nat)      (* Stop(err) / handleClosedMQ(err): the flag part *)
| StopClose                    (* stopWSHandler: every connection disconnected and disposed *)
| StopEnd (cause : nat)        (* the report on the stop channel *)
| NewConn                      (* newWSConn: WebSocket upgrade or temporary HTTP connection *)
| Load                         (* a resource is fetched into the cache on behalf of a connection *)
| ConnClose.

Inductive out := Ok | Refused | Ignored.

Definition step (s : svc) (o : op) : svc * out :=
  match o with
  | Start => if running s then (s, Ignored) else if stopping s then (s, Refused)
             else ({| running := true; stopping := false; conns := conns s; reported := reported s; cached := 0 |}, Ok)   (* Cache.Start: a new, empty map *)
  | StopBegin _ => if negb (running s) || stopping s then (s, Ignored)
                   else ({| running := true; stopping := true; conns := conns s; reported := reported s; cached := cached s |}, Ok)
  | StopClose => if stopping s then ({| running := running s; stopping := true; conns := 0; reported := reported s; cached := cached s |}, Ok) else (s, Ignored)
  | StopEnd c => if stopping s then ({| running := false; stopping := false; conns := conns s; reported := reported s ++ [c]; cached := cached s |}, Ok) else (s, Ignored)
  | NewConn => if running s && negb (stopping s)
               then ({| running := running s; stopping := stopping s; conns := S (conns s); reported := reported s; cached := cached s |}, Ok)
               else (s, Refused)          (* WebSocket: no upgrade; HTTP: 503 system.serviceUnavailable *)
  | Load => if running s && negb (stopping s) && negb (Nat.eqb (conns s) 0)
            then ({| running := running s; stopping := stopping s; conns := conns s; reported := reported s; cached := S (cached s) |}, Ok)
            else (s, Ignored)
  | ConnClose => ({| running := running s; stopping := stopping s; conns := conns s - 1; reported := reported s; cached := cached s |}, Ok)
  end.

Definition run (ops : list op) : svc := fold_left (fun s o => fst (step s o)) ops init.

(* a connection is accepted exactly while the service is started and not stopping *)
Theorem conn_only_while_serving : forall s, snd (step s NewConn) = Ok <-> (running s = true /\ stopping s = false).
Proof.
  intros s. unfold step. destruct (running s), (stopping s); cbn; split; intros H; try discriminate; try (destruct H; discriminate); auto.
Qed.

(* once Stop has begun, no connection is accepted until a later Start *)
Theorem refused_while_stopping : forall s, stopping s = true -> step s NewConn = (s, Refused).
Proof. intros s H. unfold step. rewrite H, andb_false_r. reflexivity. Qed.

Definition Inv (s : svc) : Prop := stopping s = true -> running s = true.
Lemma step_inv s o : Inv s -> Inv (fst (step s o)).
Proof.
  destruct s as [r t n l c]. unfold Inv. cbn. intros H.
  destruct o, r, t; cbn; auto; try discriminate.
  destruct (n =? 0); cbn; auto.
Qed.
Theorem run_inv ops : Inv (run ops).
Proof.
  unfold run. assert (H : Inv init) by (intros H; discriminate). revert H. generalize init.
  induction ops as [|o ops IH]; intros s H; cbn; [exact H|]. apply IH, step_inv, H.
Qed.

Lemma stop_begins s c : running s = true -> stopping s = false ->
  step s (StopBegin c) =
  ({| running := true; stopping := true; conns := conns s; reported := reported s; cached := cached s |}, Ok).
Proof. intros R T. cbn [step]. rewrite R, T. reflexivity. Qed.

(* a completed Stop leaves no connection behind, reports its cause once, and the service can be started again *)
Theorem stop_sequence : forall s c, running s = true -> stopping s = false ->
  let s1 := fst (step s (StopBegin c)) in
  let s2 := fst (step s1 StopClose) in
  let s3 := fst (step s2 (StopEnd c)) in
  conns s3 = 0 /\ reported s3 = reported s ++ [c] /\ running s3 = false /\ stopping s3 = false /\
  snd (step s3 NewConn) = Refused /\
  snd (step (fst (step s3 Start)) NewConn) = Ok.
Proof.
  intros s c R T. rewrite (stop_begins s c R T). cbn. repeat split; reflexivity.
Qed.

(* a restarted service never serves from what was cached before the stop: Start begins with an empty cache *)
Theorem start_empties_cache : forall s, snd (step s Start) = Ok -> cached (fst (step s Start)) = 0.
Proof. intros s. unfold step. destruct (running s), (stopping s); cbn; intros H; try discriminate; reflexivity. Qed.

(* Stop while stopping or while stopped does nothing: the cause is reported once per completed Stop *)
Theorem stop_idempotent : forall s c, (running s = false \/ stopping s = true) -> step s (StopBegin c) = (s, Ignored).
Proof. intros s c [H|H]; unfold step; rewrite H; cbn; [reflexivity|rewrite orb_true_r; reflexivity]. Qed.

Example ex_cycle : let s := run [Start; NewConn; Load; NewConn; Load; StopBegin 7; NewConn; Load; StopClose; StopEnd 7; NewConn; Start; NewConn] in
  (conns s, reported s, running s, stopping s, cached s) = (1, [7], true, false, 0).
Proof. reflexivity. Qed.
