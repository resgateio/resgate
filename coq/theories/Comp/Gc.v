(* C02: the connection-side reference-count collector (server/wsConnGC.go tryDelete / traverse, wsConn.removeCount,
   Subscription.Dispose / unsubscribeRefs / Unsend), on a subscription graph given as a list of nodes.
   Go maps become association lists; the final loop of tryDelete runs in node order (the Go map order is random; on graphs
   whose counters are consistent the result does not depend on it - the correspondence stage compares on those). *)
From Coq Require Import List ZArith Bool Arith Lia.
Import ListNotations.
Open Scope Z_scope.

Inductive sstate := Disposed | Loading | Loaded | Ready | ToSend | Sent | Deleted.
Definition sstate_eqb (a b : sstate) : bool :=
  match a, b with
  | Disposed, Disposed | Loading, Loading | Loaded, Loaded | Ready, Ready | ToSend, ToSend | Sent, Sent | Deleted, Deleted => true
  | _, _ => false
  end.

Record node := { direct : Z; indirect : Z; isent : Z; st : sstate; refs : list nat; present : bool }.
Definition graph := list node.

Definition dummy : node := {| direct := 0; indirect := 0; isent := 0; st := Disposed; refs := []; present := false |}.
Definition get (g : graph) (i : nat) : node := nth i g dummy.
Fixpoint set (g : graph) (i : nat) (n : node) : graph :=
  match g, i with
  | [], _ => []
  | _ :: g', O => n :: g'
  | x :: g', S i' => x :: set g' i' n
  end.

Inductive gcstate := GStop | GRoot | GNone | GDelete | GKeep | GUnsend.
Definition gc_ge_keep (s : gcstate) : bool := match s with GKeep | GUnsend => true | _ => false end.

Record subref := { r_ind : Z; r_isent : Z; r_state : gcstate }.
Definition refmap := list (nat * subref).

Fixpoint rm_get (m : refmap) (i : nat) : option subref :=
  match m with [] => None | (k, v) :: m' => if Nat.eqb k i then Some v else rm_get m' i end.
Fixpoint rm_set (m : refmap) (i : nat) (v : subref) : refmap :=
  match m with
  | [] => [(i, v)]
  | (k, w) :: m' => if Nat.eqb k i then (k, v) :: m' else (k, w) :: rm_set m' i v
  end.

(* Subscription.traverse with the first callback of tryDelete (count down): returns the map *)
Fixpoint trav1 (fuel : nat) (g : graph) (sentDiff : Z) (i : nat) (state : gcstate) (m : refmap) : refmap :=
  match fuel with
  | O => m
  | S f =>
      let n := get g i in
      if 0 <? direct n then m else
      let '(state', m') :=
        match state with
        | GRoot => (GNone, m)
        | _ =>
            match rm_get m i with
            | Some r => (GStop, rm_set m i {| r_ind := r_ind r - 1; r_isent := r_isent r - sentDiff; r_state := r_state r |})
            | None => (GNone, rm_set m i {| r_ind := indirect n - 1; r_isent := isent n - sentDiff; r_state := GNone |})
            end
        end in
      match state' with
      | GStop => m'
      | _ => fold_left (fun acc c => trav1 f g sentDiff c state' acc) (refs n) m'
      end
  end.

(* ... with the second callback (mark for deletion or unsend) *)
Fixpoint trav2 (fuel : nat) (g : graph) (sent : bool) (i : nat) (state : gcstate) (m : refmap) : refmap :=
  match fuel with
  | O => m
  | S f =>
      let n := get g i in
      if 0 <? direct n then m else
      match rm_get m i with
      | None => m
      | Some r =>
          let '(state', m') :=
            if gc_ge_keep (r_state r) then (GStop, m)
            else if (0 <? r_ind r) || (match state with GKeep => true | _ => false end) then
              (GKeep, rm_set m i {| r_ind := r_ind r; r_isent := r_isent r;
                                    r_state := if sent && (r_isent r =? 0) then GUnsend else GKeep |})
            else match r_state r with
                 | GNone => (GDelete, rm_set m i {| r_ind := r_ind r; r_isent := r_isent r; r_state := GDelete |})
                 | _ => (GStop, m)
                 end in
          match state' with
          | GStop => m'
          | _ => fold_left (fun acc c => trav2 f g sent c state' acc) (refs n) m'
          end
      end
  end.

(* wsConn.removeCount without the collector (tryDelete = false): the call made by unsubscribeRefs *)
Definition remove_indirect_nodelete (g : graph) (c : nat) (sent : bool) : graph :=
  let n := get g c in
  if (direct n + indirect n + isent n =? 0) then g else
  set g c {| direct := direct n; indirect := indirect n - 1; isent := if sent then isent n - 1 else isent n;
             st := st n; refs := refs n; present := present n |}.

(* Subscription.Dispose: the state is set to disposed BEFORE unsubscribeRefs evaluates IsSent() *)
Definition dispose (g : graph) (i : nat) : graph :=
  let n := get g i in
  match st n with
  | Disposed => g
  | _ =>
      let g := set g i {| direct := direct n; indirect := indirect n; isent := isent n; st := Disposed; refs := []; present := false |} in
      fold_left (fun acc c => remove_indirect_nodelete acc c false) (refs n) g
  end.

(* Subscription.Unsend *)
Definition unsend (g : graph) (i : nat) : graph :=
  let n := get g i in
  let g := set g i {| direct := direct n; indirect := indirect n; isent := 0; st := Ready; refs := refs n; present := present n |} in
  fold_left (fun acc c =>
    let cn := get acc c in
    if sstate_eqb (st cn) Sent && (0 <? isent cn)
    then set acc c {| direct := direct cn; indirect := indirect cn; isent := isent cn - 1; st := st cn; refs := refs cn; present := present cn |}
    else acc) (refs n) g.

Definition fuel_of (g : graph) : nat := (S (length g) * S (length g))%nat.

Definition try_delete (g : graph) (s : nat) : graph :=
  let n := get g s in
  if 0 <? direct n then g else
  let sent := sstate_eqb (st n) Sent in
  let sentDiff := if sent then 1 else 0 in
  let m0 := [(s, {| r_ind := indirect n; r_isent := isent n; r_state := GNone |})] in
  let m1 := trav1 (fuel_of g) g sentDiff s GRoot m0 in
  match rm_get m1 s with
  | None => g
  | Some rr =>
      if (0 <? r_ind rr) && negb (sent && (r_isent rr =? 0)) then g else
      let m2 := trav2 (fuel_of g) g sent s GDelete m1 in
      (* the final loop, in node order *)
      fold_left (fun acc i =>
        match rm_get m2 i with
        | Some r => match r_state r with
                    | GDelete => dispose acc i
                    | GUnsend => unsend acc i
                    | _ => acc
                    end
        | None => acc
        end) (seq 0 (length g)) g
  end.

Definition remove_count (g : graph) (s : nat) (is_direct sent : bool) (count : Z) (try : bool) : graph :=
  let n := get g s in
  if (direct n + indirect n + isent n =? 0) then g else
  let g := set g s (if is_direct
                    then {| direct := direct n - count; indirect := indirect n; isent := isent n; st := st n; refs := refs n; present := present n |}
                    else {| direct := direct n; indirect := indirect n - count; isent := if sent then isent n - count else isent n;
                            st := st n; refs := refs n; present := present n |}) in
  if try then try_delete g s else g.

(* number of live parents of c, and of live parents that have been sent *)
Definition parents (g : graph) (c : nat) (p : node -> bool) : Z :=
  Z.of_nat (length (filter (fun n => present n && p n && existsb (Nat.eqb c) (refs n)) g)).
Definition is_sent (n : node) : bool := sstate_eqb (st n) Sent.

(* counters consistent with the graph: indirect = live parents, indirectsent = live sent parents (for live nodes) *)
Definition consistent (g : graph) : bool :=
  forallb (fun i => let n := get g i in
                    negb (present n) ||
                    ((indirect n =? parents g i (fun _ => true)) && (isent n =? parents g i is_sent)))
          (seq 0 (length g)).

(* a live node is held: directly, or by a live parent *)
Definition no_garbage (g : graph) : bool :=
  forallb (fun i => let n := get g i in negb (present n) || (0 <? direct n) || (0 <? parents g i (fun _ => true)))
          (seq 0 (length g)).

(* The unchanged collector does NOT keep the sent counters consistent (recorded finding KF-COLLECTOR-DISPOSE-SENT):
   0 -> 2 and 1 -> 2, all sent, both roots directly subscribed; releasing root 0 disposes it, but its child 2 - kept
   alive and sent through root 1 - keeps a sent count of 2. *)
Definition kf_dispose_sent_graph : graph :=
  [ {| direct := 1; indirect := 0; isent := 0; st := Sent; refs := [2%nat]; present := true |};
    {| direct := 1; indirect := 0; isent := 0; st := Sent; refs := [2%nat]; present := true |};
    {| direct := 0; indirect := 2; isent := 2; st := Sent; refs := []; present := true |} ].

Theorem collector_keeps_sent_counts_refuted :
  exists g s, consistent g = true /\ consistent (remove_count g s true false 1 true) = false.
Proof. exists kf_dispose_sent_graph, 0%nat. split; vm_compute; reflexivity. Qed.

(* what does hold on that witness: nothing live is left unheld, and the other root is untouched *)
Example kf_dispose_sent_rest :
  let g' := remove_count kf_dispose_sent_graph 0 true false 1 true in
  no_garbage g' = true /\ get g' 1 = get kf_dispose_sent_graph 1 /\ present (get g' 0) = false /\ isent (get g' 2) = 2.
Proof. vm_compute. repeat split; reflexivity. Qed.

Lemma get_set_same g i n : (i < length g)%nat -> get (set g i n) i = n.
Proof.
  revert i; induction g as [|x g IH]; intros i H; cbn in *; [lia|].
  destruct i; cbn; [reflexivity|]. apply IH. lia.
Qed.
Lemma get_set_other g i j n : i <> j -> get (set g i n) j = get g j.
Proof.
  revert i j; induction g as [|x g IH]; intros i j H; cbn; [reflexivity|].
  destruct i, j; cbn; try reflexivity; try congruence. apply IH. congruence.
Qed.
Lemma set_length g i n : length (set g i n) = length g.
Proof. revert i; induction g as [|x g IH]; intros i; cbn; [reflexivity|]. destruct i; cbn; [reflexivity|]. f_equal. apply IH. Qed.

Lemma set_beyond g i n : (length g <= i)%nat -> set g i n = g.
Proof.
  revert i; induction g as [|x g IH]; intros i H; cbn; [reflexivity|].
  destruct i; cbn in *; [lia|]. f_equal. apply IH. lia.
Qed.

Lemma rm_get_set m i v j : rm_get (rm_set m i v) j = if Nat.eqb i j then Some v else rm_get m j.
Proof.
  induction m as [|[k w] m IH]; cbn; [reflexivity|].
  destruct (Nat.eqb_spec k i) as [->|Hne]; cbn.
  - destruct (Nat.eqb i j); reflexivity.
  - rewrite IH. destruct (Nat.eqb_spec k j) as [->|]; [|reflexivity].
    destruct (Nat.eqb_spec i j); [congruence|reflexivity].
Qed.

Lemma fold_left_keeps {A B} (P : A -> Prop) (f : A -> B -> A) :
  (forall a b, P a -> P (f a b)) -> forall l a, P a -> P (fold_left f l a).
Proof. intros Hf. induction l as [|b l IH]; intros a Ha; cbn; [exact Ha|]. apply IH, Hf, Ha. Qed.

Definition reg (g : graph) (j : nat) : sstate * bool * Z := (st (get g j), present (get g j), direct (get g j)).

Lemma set_reg g c n j : st n = st (get g c) -> present n = present (get g c) -> direct n = direct (get g c) ->
  reg (set g c n) j = reg g j.
Proof.
  intros Hs Hp Hd. unfold reg. destruct (Nat.eq_dec c j) as [->|Hne]; [|rewrite get_set_other by exact Hne; reflexivity].
  destruct (Nat.lt_ge_cases j (length g)) as [Hlt|Hge].
  - rewrite get_set_same by exact Hlt. rewrite Hs, Hp, Hd. reflexivity.
  - rewrite set_beyond by exact Hge. reflexivity.
Qed.

Lemma remove_indirect_nodelete_reg g c sent j : reg (remove_indirect_nodelete g c sent) j = reg g j.
Proof. unfold remove_indirect_nodelete. destruct (_ =? 0); [reflexivity|]. apply set_reg; reflexivity. Qed.

Lemma dispose_reg_other g i j : i <> j -> reg (dispose g i) j = reg g j.
Proof.
  intros H. unfold dispose. set (g' := fold_left _ _ _).
  assert (Hg' : reg g' j = reg g j).
  { apply fold_left_keeps.
    - intros a c <-. apply remove_indirect_nodelete_reg.
    - unfold reg. rewrite get_set_other by exact H. reflexivity. }
  clearbody g'. destruct (st (get g i)); [reflexivity|exact Hg'..].
Qed.

Lemma unsend_reg_other g i j : i <> j -> reg (unsend g i) j = reg g j.
Proof.
  intros H. unfold unsend. apply fold_left_keeps.
  - intros a c <-. destruct (_ && _); [apply set_reg|]; reflexivity.
  - unfold reg. rewrite get_set_other by exact H. reflexivity.
Qed.

(* The traversals enter in the map only nodes that are not directly subscribed: such a node [j] never becomes a key. *)
Lemma rm_set_skips g j m i v : 0 < direct (get g j) -> (0 <? direct (get g i)) = false ->
  rm_get m j = None -> rm_get (rm_set m i v) j = None.
Proof.
  intros Hj Hi Hm. rewrite rm_get_set. destruct (Nat.eqb_spec i j) as [->|]; [|exact Hm].
  apply Z.ltb_lt in Hj. congruence.
Qed.

Lemma trav1_skips g j fuel : 0 < direct (get g j) -> forall sd i state m,
  rm_get m j = None -> rm_get (trav1 fuel g sd i state m) j = None.
Proof.
  intros Hj. induction fuel as [|f IH]; intros sd i state m Hm; cbn; [exact Hm|].
  destruct (0 <? direct (get g i)) eqn:Hd; [exact Hm|].
  assert (Hfold : forall st' l m', rm_get m' j = None ->
            rm_get (fold_left (fun acc c => trav1 f g sd c st' acc) l m') j = None).
  { intros st'. apply (fold_left_keeps (fun m => rm_get m j = None)). intros a c. apply IH. }
  destruct state; try (destruct (rm_get m i) as [r|]; [|apply Hfold]; apply (rm_set_skips g); assumption).
  apply Hfold, Hm.
Qed.

Lemma trav2_skips g j fuel : 0 < direct (get g j) -> forall sent i state m,
  rm_get m j = None -> rm_get (trav2 fuel g sent i state m) j = None.
Proof.
  intros Hj. induction fuel as [|f IH]; intros sent i state m Hm; cbn; [exact Hm|].
  destruct (0 <? direct (get g i)) eqn:Hd; [exact Hm|].
  destruct (rm_get m i) as [r|]; [|exact Hm].
  assert (Hfold : forall st' v, rm_get (fold_left (fun acc c => trav2 f g sent c st' acc) (refs (get g i)) (rm_set m i v)) j = None).
  { intros st' v. apply (fold_left_keeps (fun m => rm_get m j = None)); [intros a c; apply IH|apply (rm_set_skips g); assumption]. }
  destruct (gc_ge_keep (r_state r)); [exact Hm|].
  destruct ((0 <? r_ind r) || match state with GKeep => true | _ => false end); [apply Hfold|].
  destruct (r_state r); try exact Hm. apply Hfold.
Qed.

(* C02 (collector, proved part): releasing or collecting never unregisters, disposes or "unsends" a resource the client
   is directly subscribed to - whatever the graph (cycles, sharing) and whatever its counters. *)
Theorem try_delete_keeps_direct : forall g s j,
  0 < direct (get g j) -> reg (try_delete g s) j = reg g j.
Proof.
  intros g s j Hj. unfold try_delete.
  destruct (0 <? direct (get g s)) eqn:Hs; [reflexivity|].
  set (sent := sstate_eqb (st (get g s)) Sent).
  set (m1 := trav1 _ _ _ _ _ _).
  destruct (rm_get m1 s) as [rr|]; [|reflexivity].
  destruct ((0 <? r_ind rr) && negb (sent && (r_isent rr =? 0))); [reflexivity|].
  set (m2 := trav2 _ _ _ _ _ _).
  assert (Hm2 : rm_get m2 j = None).
  { apply trav2_skips, trav1_skips; try exact Hj. cbn.
    destruct (Nat.eqb_spec s j) as [->|]; [|reflexivity]. apply Z.ltb_lt in Hj. congruence. }
  (* so the final loop never visits j *)
  apply fold_left_keeps; [|reflexivity]. intros acc i <-.
  destruct (Nat.eq_dec i j) as [->|Hne]; [rewrite Hm2; reflexivity|].
  destruct (rm_get m2 i) as [r|]; [|reflexivity].
  destruct (r_state r); try reflexivity.
  - apply dispose_reg_other, Hne.
  - apply unsend_reg_other, Hne.
Qed.
Print Assumptions try_delete_keeps_direct.
Print Assumptions collector_keeps_sent_counts_refuted.
