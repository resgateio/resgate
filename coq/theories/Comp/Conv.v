(* C01: one cached resource, any number of subscribers, all interleavings.
   Mirrors: rescache handleEvent (version stamp, bump on update, fan-out), GetModel snapshot under the lock,
   Subscription.Loaded / Event / processEvent (version filter) / queueEvents / unqueueEvents (partial drain),
   FIFO eventSub queue and FIFO connection queue, and a consistent service. *)
From Coq Require Import List Arith Lia Bool.
Import ListNotations.

Section Conv.
(* [norm u v]: what the cache makes of update u against its value v before passing it on (handleEventChange drops the
   properties that change nothing): None if nothing is left, else the part that is sent in its place *)
Variables (val upd : Type) (app : upd -> val -> val) (norm : upd -> val -> option upd) (d : val).
Hypothesis norm_none : forall u v, norm u v = None -> app u v = v.
Hypothesis norm_some : forall u v u', norm u v = Some u' -> app u' v = app u v.

(* event as stamped by the cache: target version, and Some u for an update / None for a custom event *)
Record ev := { e_ver : nat; e_upd : option upd }.
Inductive citem := CLoaded | CEvent (e : ev)                  (* wsConn.queue items for one subscription *)
                 | CReacc.                                    (* a reaccess event: Subscription.reaccess, whatever the state *)
Inductive eitem := IEvent (u : upd) | ICustom | IGetResp (v : val) | IAddSub (s : nat)   (* EventSubscription.queue *)
                 | IRemSub (s : nat)   (* ResourceSubscription.Unsubscribe *)
                 | IReacc              (* a reaccess event of the service: passed on even before the resource is loaded *)
                 | INop (tag : nat).   (* a task that does not touch the resource: the answer to an access or call request
                                          passing through the resource's queue (Cache.sendRequest) *)

(* one Subscription as the resource sees it: [sver] / [sval] the version it expects next and the copy its client has been
   sent so far; [flag] queueFlag <> 0, events are then held back in [eq]; [sent] the snapshot has gone out; [cq] its items on
   the connection's queue *)
Record sub := { subscribed : bool; loaded : bool; sver : nat; sval : val; flag : bool;
                eq : list ev; sent : bool; cq : list citem;
                gone : bool;        (* Subscription.state == stateDisposed *)
                closed : bool }.    (* the connection is disposing: wsConn.Enqueue refuses new tasks *)
Record st := { truth : val; answered : bool; qe : list eitem;
               rs_loaded : bool; rs_val : val; rs_ver : nat; rs_subs : list nat; subs : nat -> sub }.

Definition sub0 : sub := {| subscribed := false; loaded := false; sver := 0; sval := d; flag := true;
                            eq := []; sent := false; cq := []; gone := false; closed := false |}.
Definition init (t : val) : st :=
  {| truth := t; answered := false; qe := []; rs_loaded := false; rs_val := d; rs_ver := 0;
     rs_subs := []; subs := fun _ => sub0 |}.

Definition set_sub (f : nat -> sub) (s : nat) (x : sub) : nat -> sub := fun s' => if Nat.eqb s' s then x else f s'.
Definition push_c (x : sub) (i : citem) : sub :=
  {| subscribed := subscribed x; loaded := loaded x; sver := sver x; sval := sval x; flag := flag x;
     eq := eq x; sent := sent x; cq := cq x ++ [i]; gone := gone x; closed := closed x |}.
Definition mem (s : nat) (l : list nat) : bool := existsb (Nat.eqb s) l.
(* fan-out to the subscribers; a closing connection refuses the task (wsConn.Enqueue returns false) *)
Definition push_all (f : nat -> sub) (l : list nat) (i : citem) : nat -> sub :=
  fun s => if mem s l && negb (closed (f s)) then push_c (f s) i else f s.
(* Subscription.Loaded on a closing connection: the subscriber is released at once *)
Definition refused (f : nat -> sub) (l : list nat) : list eitem :=
  map IRemSub (filter (fun s => closed (f s)) l).
Fixpoint remove_sub (s : nat) (l : list nat) : list nat :=
  match l with [] => [] | s' :: r => if Nat.eqb s' s then remove_sub s r else s' :: remove_sub s r end.
(* Subscription.Dispose (and wsConn.dispose when [cl]) *)
Definition dispose (x : sub) (cl : bool) : sub :=
  {| subscribed := subscribed x; loaded := false; sver := sver x; sval := sval x; flag := flag x;
     eq := []; sent := sent x; cq := cq x; gone := true; closed := closed x || cl |}.

(* Subscription.processEvent *)
Definition proc (p : nat * val) (e : ev) : nat * val :=
  let '(ver, v) := p in
  if Nat.eqb ver (e_ver e) then
    match e_upd e with Some u => (S ver, app u v) | None => (ver, v) end
  else (ver, v).
Definition replay (p : nat * val) (l : list ev) : nat * val := fold_left proc l p.

Inductive action :=
| SvcUpdate (u : upd) | SvcCustom | SvcAnswer
| SvcNop (tag : nat)         (* an answer routed through the resource's queue *)
| SvcReacc                   (* the service emits a reaccess event *)
| Subscribe (s : nat)
| Dispose (s : nat) (cl : bool) (* the subscription is disposed (request failed / access denied); with cl the whole connection closes *)
| RunE                       (* cache worker executes the head of the resource queue *)
| RunC (s : nat)             (* connection worker executes the head item for subscription s *)
| Respond (s : nat) (c : nat)(* OnReady callback: send snapshot, ReleaseRPCResources, drain up to a cut *)
| Unqueue (s : nat) (c : nat)(* unqueueEvents, draining c events before queueing restarts (or all) *)
| StartQueue (s : nat).      (* queueEvents *)

Definition evs (q : list citem) : list ev :=
  flat_map (fun i => match i with CEvent e => [e] | CLoaded | CReacc => [] end) q.

Definition with_sub (x : sub) ver v fl q snt : sub :=
  {| subscribed := subscribed x; loaded := loaded x; sver := ver; sval := v; flag := fl;
     eq := q; sent := snt; cq := cq x; gone := gone x; closed := closed x |}.

(* drain the first c queued events; if some remain queueing is on again *)
Definition drain (x : sub) (c : nat) : sub :=
  let done := firstn c (eq x) in
  let rest := skipn c (eq x) in
  let '(ver, v) := replay (sver x, sval x) done in
  with_sub x ver v (match rest with [] => false | _ => true end) rest (sent x).

Definition step (σ : st) (a : action) : st :=
  match a with
  | SvcUpdate u =>
      {| truth := app u (truth σ); answered := answered σ; qe := qe σ ++ [IEvent u];
         rs_loaded := rs_loaded σ; rs_val := rs_val σ; rs_ver := rs_ver σ; rs_subs := rs_subs σ; subs := subs σ |}
  | SvcCustom =>
      {| truth := truth σ; answered := answered σ; qe := qe σ ++ [ICustom];
         rs_loaded := rs_loaded σ; rs_val := rs_val σ; rs_ver := rs_ver σ; rs_subs := rs_subs σ; subs := subs σ |}
  | SvcAnswer =>
      if answered σ then σ else
      {| truth := truth σ; answered := true; qe := qe σ ++ [IGetResp (truth σ)];
         rs_loaded := rs_loaded σ; rs_val := rs_val σ; rs_ver := rs_ver σ; rs_subs := rs_subs σ; subs := subs σ |}
  | SvcReacc =>
      {| truth := truth σ; answered := answered σ; qe := qe σ ++ [IReacc];
         rs_loaded := rs_loaded σ; rs_val := rs_val σ; rs_ver := rs_ver σ; rs_subs := rs_subs σ; subs := subs σ |}
  | SvcNop n =>
      {| truth := truth σ; answered := answered σ; qe := qe σ ++ [INop n];
         rs_loaded := rs_loaded σ; rs_val := rs_val σ; rs_ver := rs_ver σ; rs_subs := rs_subs σ; subs := subs σ |}
  | Subscribe s =>
      if subscribed (subs σ s) then σ else
      let x := subs σ s in
      let x' := {| subscribed := true; loaded := loaded x; sver := sver x; sval := sval x; flag := flag x;
                   eq := eq x; sent := sent x; cq := cq x; gone := gone x; closed := closed x |} in
      {| truth := truth σ; answered := answered σ; qe := qe σ ++ [IAddSub s];
         rs_loaded := rs_loaded σ; rs_val := rs_val σ; rs_ver := rs_ver σ; rs_subs := rs_subs σ;
         subs := set_sub (subs σ) s x' |}
  | Dispose s cl =>
      let x := subs σ s in
      if gone x then
        (if cl then {| truth := truth σ; answered := answered σ; qe := qe σ; rs_loaded := rs_loaded σ; rs_val := rs_val σ;
                       rs_ver := rs_ver σ; rs_subs := rs_subs σ; subs := set_sub (subs σ) s (dispose x true) |} else σ)
      else
      {| truth := truth σ; answered := answered σ;
         qe := if loaded x then qe σ ++ [IRemSub s] else qe σ;
         rs_loaded := rs_loaded σ; rs_val := rs_val σ; rs_ver := rs_ver σ; rs_subs := rs_subs σ;
         subs := set_sub (subs σ) s (dispose x cl) |}
  | RunE =>
      match qe σ with
      | [] => σ
      | IGetResp v :: q =>
          {| truth := truth σ; answered := answered σ; qe := q ++ refused (subs σ) (rs_subs σ);
             rs_loaded := true; rs_val := v; rs_ver := 0; rs_subs := rs_subs σ;
             subs := push_all (subs σ) (rs_subs σ) CLoaded |}
      | IAddSub s :: q =>
          {| truth := truth σ; answered := answered σ;
             qe := if rs_loaded σ && closed (subs σ s) then q ++ [IRemSub s] else q;
             rs_loaded := rs_loaded σ; rs_val := rs_val σ; rs_ver := rs_ver σ; rs_subs := s :: rs_subs σ;
             subs := if rs_loaded σ && negb (closed (subs σ s)) then set_sub (subs σ) s (push_c (subs σ s) CLoaded) else subs σ |}
      | IRemSub s :: q =>
          {| truth := truth σ; answered := answered σ; qe := q;
             rs_loaded := rs_loaded σ; rs_val := rs_val σ; rs_ver := rs_ver σ; rs_subs := remove_sub s (rs_subs σ);
             subs := subs σ |}
      | IEvent u :: q =>
          if rs_loaded σ then
            match norm u (rs_val σ) with
            | None => {| truth := truth σ; answered := answered σ; qe := q;
                         rs_loaded := rs_loaded σ; rs_val := rs_val σ; rs_ver := rs_ver σ; rs_subs := rs_subs σ; subs := subs σ |}
            | Some u' =>
                {| truth := truth σ; answered := answered σ; qe := q;
                   rs_loaded := true; rs_val := app u (rs_val σ); rs_ver := S (rs_ver σ); rs_subs := rs_subs σ;
                   subs := push_all (subs σ) (rs_subs σ) (CEvent {| e_ver := rs_ver σ; e_upd := Some u' |}) |}
            end
          else {| truth := truth σ; answered := answered σ; qe := q;
                  rs_loaded := rs_loaded σ; rs_val := rs_val σ; rs_ver := rs_ver σ; rs_subs := rs_subs σ; subs := subs σ |}
      | INop _ :: q =>
          {| truth := truth σ; answered := answered σ; qe := q;
             rs_loaded := rs_loaded σ; rs_val := rs_val σ; rs_ver := rs_ver σ; rs_subs := rs_subs σ; subs := subs σ |}
      | IReacc :: q =>
          {| truth := truth σ; answered := answered σ; qe := q;
             rs_loaded := rs_loaded σ; rs_val := rs_val σ; rs_ver := rs_ver σ; rs_subs := rs_subs σ;
             subs := push_all (subs σ) (rs_subs σ) CReacc |}
      | ICustom :: q =>
          {| truth := truth σ; answered := answered σ; qe := q;
             rs_loaded := rs_loaded σ; rs_val := rs_val σ; rs_ver := rs_ver σ; rs_subs := rs_subs σ;
             subs := if rs_loaded σ
                     then push_all (subs σ) (rs_subs σ) (CEvent {| e_ver := rs_ver σ; e_upd := None |})
                     else subs σ |}
      end
  | RunC s =>
      let x := subs σ s in
      match cq x with
      | [] => σ
      | CLoaded :: q =>
          if gone x then
            (* disposed before it was loaded: release the subscriber now *)
            {| truth := truth σ; answered := answered σ; qe := qe σ ++ [IRemSub s]; rs_loaded := rs_loaded σ; rs_val := rs_val σ;
               rs_ver := rs_ver σ; rs_subs := rs_subs σ;
               subs := set_sub (subs σ) s {| subscribed := subscribed x; loaded := false; sver := sver x; sval := sval x; flag := flag x;
                                             eq := eq x; sent := sent x; cq := q; gone := gone x; closed := closed x |} |}
          else
          (* Loaded + setModel: snapshot value and version together, start queueing *)
          let x' := {| subscribed := subscribed x; loaded := true; sver := rs_ver σ; sval := rs_val σ; flag := true;
                       eq := []; sent := false; cq := q; gone := gone x; closed := closed x |} in
          {| truth := truth σ; answered := answered σ; qe := qe σ; rs_loaded := rs_loaded σ; rs_val := rs_val σ;
             rs_ver := rs_ver σ; rs_subs := rs_subs σ; subs := set_sub (subs σ) s x' |}
      | CReacc :: q =>
          {| truth := truth σ; answered := answered σ; qe := qe σ; rs_loaded := rs_loaded σ; rs_val := rs_val σ;
             rs_ver := rs_ver σ; rs_subs := rs_subs σ;
             subs := set_sub (subs σ) s {| subscribed := subscribed x; loaded := loaded x; sver := sver x; sval := sval x; flag := flag x;
                                           eq := eq x; sent := sent x; cq := q; gone := gone x; closed := closed x |} |}
      | CEvent e :: q =>
          let x' :=
            if negb (loaded x) then                       (* resourceSub == nil: discard *)
              {| subscribed := subscribed x; loaded := false; sver := sver x; sval := sval x; flag := flag x;
                 eq := eq x; sent := sent x; cq := q; gone := gone x; closed := closed x |}
            else if flag x then                           (* queueFlag != 0: hold *)
              {| subscribed := subscribed x; loaded := true; sver := sver x; sval := sval x; flag := true;
                 eq := eq x ++ [e]; sent := sent x; cq := q; gone := gone x; closed := closed x |}
            else
              let '(ver, v) := proc (sver x, sval x) e in
              {| subscribed := subscribed x; loaded := true; sver := ver; sval := v; flag := false;
                 eq := eq x; sent := sent x; cq := q; gone := gone x; closed := closed x |} in
          {| truth := truth σ; answered := answered σ; qe := qe σ; rs_loaded := rs_loaded σ; rs_val := rs_val σ;
             rs_ver := rs_ver σ; rs_subs := rs_subs σ; subs := set_sub (subs σ) s x' |}
      end
  | Respond s c =>
      let x := subs σ s in
      if loaded x && negb (sent x) then
        let x1 := with_sub x (sver x) (sval x) (flag x) (eq x) true in
        {| truth := truth σ; answered := answered σ; qe := qe σ; rs_loaded := rs_loaded σ; rs_val := rs_val σ;
           rs_ver := rs_ver σ; rs_subs := rs_subs σ; subs := set_sub (subs σ) s (drain x1 c) |}
      else σ
  | Unqueue s c =>
      let x := subs σ s in
      if loaded x && sent x && flag x then
        {| truth := truth σ; answered := answered σ; qe := qe σ; rs_loaded := rs_loaded σ; rs_val := rs_val σ;
           rs_ver := rs_ver σ; rs_subs := rs_subs σ; subs := set_sub (subs σ) s (drain x c) |}
      else σ
  | StartQueue s =>
      let x := subs σ s in
      if loaded x && sent x then
        {| truth := truth σ; answered := answered σ; qe := qe σ; rs_loaded := rs_loaded σ; rs_val := rs_val σ;
           rs_ver := rs_ver σ; rs_subs := rs_subs σ;
           subs := set_sub (subs σ) s (with_sub x (sver x) (sval x) true (eq x) (sent x)) |}
      else σ
  end.

Definition run (t : val) (acts : list action) : st := fold_left step acts (init t).

(* the value the cache will have once the items waiting in the resource's queue have run (None: not loaded) *)
Definition pstep (b : option val) (i : eitem) : option val :=
  match i with IGetResp v => Some v | IEvent u => option_map (app u) b | _ => b end.
Definition pend (q : list eitem) (b : option val) : option val := fold_left pstep q b.

Definition b2n (b : bool) : nat := if b then 1 else 0.
Definition is_get (i : eitem) := match i with IGetResp _ => true | _ => false end.
Definition is_add (s : nat) (i : eitem) := match i with IAddSub s' => Nat.eqb s' s | _ => false end.
Definition is_ld (i : citem) := match i with CLoaded => true | _ => false end.
Definition cnt {A} (f : A -> bool) (l : list A) := length (filter f l).
Definition is_rem (s : nat) (i : eitem) := match i with IRemSub s' => Nat.eqb s' s | _ => false end.

(* The life of subscription s on the cache side: IAddSub s pending in qe -> member of rs_subs ->
   (IRemSub s pending in qe, still a member) -> removed.  i3/i3g account for the first two stages, and i4 says that
   for a member of a loaded resource exactly one of these holds: its CLoaded is still in its connection queue, it is
   loaded, or its release IRemSub is pending in qe.
   Convergence and the absence of gaps are read off i1 and i5. i1: what waits in the resource's queue, applied to the
   cached value, gives the service's value (nothing while the get request is unanswered). i5: the events a loaded
   subscriber holds back or has in its connection queue, replayed on its copy, give the cached value and version. *)
Record Inv (σ : st) : Prop := {
  i1 : pend (qe σ) (if rs_loaded σ then Some (rs_val σ) else None) = (if answered σ then Some (truth σ) else None);
  i2 : cnt is_get (qe σ) + b2n (rs_loaded σ) = b2n (answered σ);
  i3 : forall s, gone (subs σ s) = false ->
         cnt (is_add s) (qe σ) + b2n (mem s (rs_subs σ)) = b2n (subscribed (subs σ s));
  i3g : forall s, cnt (is_add s) (qe σ) + b2n (mem s (rs_subs σ)) <= b2n (subscribed (subs σ s));
  i4 : forall s, cnt is_ld (cq (subs σ s)) + b2n (loaded (subs σ s)) + cnt (is_rem s) (qe σ)
                 = b2n (mem s (rs_subs σ) && rs_loaded σ);
  i5 : forall s, loaded (subs σ s) = true ->
         replay (sver (subs σ s), sval (subs σ s)) (eq (subs σ s) ++ evs (cq (subs σ s))) = (rs_ver σ, rs_val σ);
  i6 : forall s e, In e (evs (cq (subs σ s))) -> e_upd e <> None -> e_ver e < rs_ver σ;
  i7 : forall s, loaded (subs σ s) = false -> eq (subs σ s) = [];
  i8 : forall s, flag (subs σ s) = false -> eq (subs σ s) = [];
  (* before the resource is loaded a connection queue holds nothing but reaccess events *)
  i9 : rs_loaded σ = false -> forall s, evs (cq (subs σ s)) = [] /\ cnt is_ld (cq (subs σ s)) = 0;
  igl : forall s, gone (subs σ s) = true -> loaded (subs σ s) = false;
  icg : forall s, closed (subs σ s) = true -> gone (subs σ s) = true;
  irm : forall s, gone (subs σ s) = false -> cnt (is_rem s) (qe σ) = 0;
  ind : NoDup (rs_subs σ)
}.

Lemma cnt_app {A} (f : A -> bool) l1 l2 : cnt f (l1 ++ l2) = cnt f l1 + cnt f l2.
Proof. unfold cnt. rewrite filter_app, app_length. reflexivity. Qed.
Lemma cnt_cons {A} (f : A -> bool) a l : cnt f (a :: l) = b2n (f a) + cnt f l.
Proof. unfold cnt. cbn [filter]. destruct (f a); reflexivity. Qed.
Lemma cnt_snoc {A} (f : A -> bool) l a : cnt f (l ++ [a]) = cnt f l + b2n (f a).
Proof. rewrite cnt_app, cnt_cons. apply f_equal, Nat.add_0_r. Qed.
Lemma cnt_opt {A} (f : A -> bool) (k : bool) l a : cnt f (if k then l ++ [a] else l) = cnt f l + b2n (k && f a).
Proof. destruct k; cbn [andb b2n]; [apply cnt_snoc|symmetry; apply Nat.add_0_r]. Qed.
Lemma b2n_le b : b2n b <= 1. Proof. destruct b; cbn; lia. Qed.
Lemma pend_app' q1 q2 b : pend (q1 ++ q2) b = pend q2 (pend q1 b).
Proof. unfold pend. apply fold_left_app. Qed.
Lemma pend_app q i b : pend (q ++ [i]) b = pstep (pend q b) i.
Proof. apply pend_app'. Qed.
Lemma replay_app p l1 l2 : replay p (l1 ++ l2) = replay (replay p l1) l2.
Proof. unfold replay. apply fold_left_app. Qed.
Lemma evs_app q1 q2 : evs (q1 ++ q2) = evs q1 ++ evs q2.
Proof. unfold evs. apply flat_map_app. Qed.

Lemma set_sub_eq f s x : set_sub f s x s = x.
Proof. unfold set_sub. rewrite Nat.eqb_refl. reflexivity. Qed.
Lemma set_sub_neq f s x s' : s' <> s -> set_sub f s x s' = f s'.
Proof. unfold set_sub. intros H. apply Nat.eqb_neq in H. rewrite H. reflexivity. Qed.
Lemma eqb_other {s s0} : s <> s0 -> Nat.eqb s0 s = false.
Proof. intros H. apply Nat.eqb_neq. congruence. Qed.

Lemma mem_cons s s0 l : mem s (s0 :: l) = Nat.eqb s s0 || mem s l.
Proof. reflexivity. Qed.
Lemma mem_In s l : mem s l = true <-> In s l.
Proof.
  unfold mem. rewrite existsb_exists. split.
  - intros (x & Hx & E). apply Nat.eqb_eq in E. subst. exact Hx.
  - intros H. exists s. split; [exact H|apply Nat.eqb_refl].
Qed.
Lemma mem_remove_same s l : mem s (remove_sub s l) = false.
Proof.
  induction l as [|a l IH]; [reflexivity|]. cbn [remove_sub]. destruct (Nat.eqb a s) eqn:E; [exact IH|].
  rewrite mem_cons, IH, Nat.eqb_sym, E. reflexivity.
Qed.
Lemma mem_remove_other s s0 l : s <> s0 -> mem s (remove_sub s0 l) = mem s l.
Proof.
  intros Hne. induction l as [|a l IH]; [reflexivity|]. cbn [remove_sub]. destruct (Nat.eqb_spec a s0) as [->|_].
  - rewrite mem_cons, Nat.eqb_sym, (eqb_other Hne). exact IH.
  - rewrite !mem_cons, IH. reflexivity.
Qed.
Lemma remove_sub_filter s l : remove_sub s l = filter (fun a => negb (Nat.eqb a s)) l.
Proof. induction l as [|a l IH]; [reflexivity|]. cbn [remove_sub filter]. rewrite IH. destruct (Nat.eqb a s); reflexivity. Qed.
Lemma NoDup_remove s l : NoDup l -> NoDup (remove_sub s l).
Proof. rewrite remove_sub_filter. apply NoDup_filter. Qed.

Lemma cnt_refused_rem f l s : NoDup l -> cnt (is_rem s) (refused f l) = b2n (mem s l && closed (f s)).
Proof.
  unfold refused. induction 1 as [|a l Hn Hd IH]; [reflexivity|].
  cbn [filter]. rewrite mem_cons. destruct (Nat.eqb_spec s a) as [->|Hne].
  - assert (Hm : mem a l = false). { destruct (mem a l) eqn:E; [|reflexivity]. apply mem_In in E. contradiction. }
    rewrite Hm in IH. cbn [orb andb] in *. destruct (closed (f a)) eqn:Ec; [|exact IH].
    cbn [map]. rewrite cnt_cons, IH. cbn [is_rem]. rewrite Nat.eqb_refl. reflexivity.
  - cbn [orb]. destruct (closed (f a)); [|exact IH].
    cbn [map]. rewrite cnt_cons, IH. cbn [is_rem]. rewrite (eqb_other Hne). reflexivity.
Qed.
Lemma cnt_refused_0 (g : eitem -> bool) f l : (forall s, g (IRemSub s) = false) -> cnt g (refused f l) = 0.
Proof.
  intros Hg. unfold refused. induction (filter (fun s => closed (f s)) l) as [|a r IH]; [reflexivity|].
  cbn [map]. rewrite cnt_cons, Hg. exact IH.
Qed.
Lemma pend_refused f l b : pend (refused f l) b = b.
Proof.
  unfold refused, pend. induction (filter (fun s => closed (f s)) l) as [|a r IH]; [reflexivity|]. cbn. exact IH.
Qed.

Lemma init_inv t : Inv (init t).
Proof.
  constructor; cbn; intros; try reflexivity; try discriminate; try contradiction; try lia; try apply NoDup_nil.
  split; reflexivity.
Qed.

Lemma replay_stale : forall l n v,
  (forall e, In e l -> e_upd e <> None -> e_ver e < n) -> replay (n, v) l = (n, v).
Proof.
  induction l as [|e l IH]; intros n v H; [reflexivity|].
  assert (IH' : replay (n, v) l = (n, v)) by (apply IH; intros e' Hin; apply H; right; exact Hin).
  unfold replay in *. cbn [fold_left]. unfold proc at 2.
  destruct (Nat.eqb_spec n (e_ver e)) as [E|E]; [|exact IH']. destruct (e_upd e) eqn:Eu; [|exact IH'].
  assert (e_ver e < n) by (apply H; [left; reflexivity|congruence]). lia.
Qed.

(* What Inv says of a single subscription x, given what the cache side holds for it: na and nr count its IAddSub and
   IRemSub items pending in qe, m says whether it is a member of rs_subs; l, n, v are rs_loaded, rs_ver, rs_val.
   The fields are i3 .. irm in the same order.  A step that concerns one subscription, or treats all alike, is then
   checked on one record and these six parameters. *)
Record SInv (na nr : nat) (m l : bool) (n : nat) (v : val) (x : sub) : Prop := {
  j3 : gone x = false -> na + b2n m = b2n (subscribed x);
  j3g : na + b2n m <= b2n (subscribed x);
  j4 : cnt is_ld (cq x) + b2n (loaded x) + nr = b2n (m && l);
  j5 : loaded x = true -> replay (sver x, sval x) (eq x ++ evs (cq x)) = (n, v);
  j6 : forall e, In e (evs (cq x)) -> e_upd e <> None -> e_ver e < n;
  j7 : loaded x = false -> eq x = [];
  j8 : flag x = false -> eq x = [];
  j9 : l = false -> evs (cq x) = [] /\ cnt is_ld (cq x) = 0;
  jgl : gone x = true -> loaded x = false;
  jcg : closed x = true -> gone x = true;
  jrm : gone x = false -> nr = 0
}.

Lemma inv_sub σ s : Inv σ ->
  SInv (cnt (is_add s) (qe σ)) (cnt (is_rem s) (qe σ)) (mem s (rs_subs σ)) (rs_loaded σ) (rs_ver σ) (rs_val σ) (subs σ s).
Proof. intros []. constructor; eauto. Qed.

Lemma inv_intro t (a : bool) q (l : bool) v n m f :
  pend q (if l then Some v else None) = (if a then Some t else None) ->
  cnt is_get q + b2n l = b2n a -> NoDup m ->
  (forall s, SInv (cnt (is_add s) q) (cnt (is_rem s) q) (mem s m) l n v (f s)) ->
  Inv {| truth := t; answered := a; qe := q; rs_loaded := l; rs_val := v; rs_ver := n; rs_subs := m; subs := f |}.
Proof.
  intros H1 H2 Hnd Hs.
  constructor; cbn [truth answered qe rs_loaded rs_val rs_ver rs_subs subs]; try assumption; try (intros s; apply (Hs s)).
  intros Hl s. apply (Hs s), Hl.
Qed.

(* i may be the get response: then the request had not been answered, and a counts it *)
Lemma push_inv σ t (a : bool) i : Inv σ ->
  b2n (is_get i) + b2n (answered σ) = b2n a -> (forall s, is_add s i = false) -> (forall s, is_rem s i = false) ->
  pstep (if answered σ then Some (truth σ) else None) i = (if a then Some t else None) ->
  Inv {| truth := t; answered := a; qe := qe σ ++ [i]; rs_loaded := rs_loaded σ; rs_val := rs_val σ;
         rs_ver := rs_ver σ; rs_subs := rs_subs σ; subs := subs σ |}.
Proof.
  intros H Hg Ha Hr Hp. apply inv_intro.
  - rewrite pend_app, (i1 _ H). exact Hp.
  - rewrite cnt_snoc, <- Hg, <- (i2 _ H). lia.
  - exact (ind _ H).
  - intros s. rewrite !cnt_snoc, Ha, Hr, !Nat.add_0_r. exact (inv_sub σ s H).
Qed.

(* l is rs_loaded σ under a name, so that the lemma applies after a case split on it *)
Lemma head_inv σ i q l n' v' f : Inv σ -> qe σ = i :: q -> rs_loaded σ = l ->
  is_get i = false -> (forall s, is_add s i = false) -> (forall s, is_rem s i = false) ->
  pstep (if l then Some (rs_val σ) else None) i = (if l then Some v' else None) ->
  (forall s na nr, SInv na nr (mem s (rs_subs σ)) l (rs_ver σ) (rs_val σ) (subs σ s) ->
                   SInv na nr (mem s (rs_subs σ)) l n' v' (f s)) ->
  Inv {| truth := truth σ; answered := answered σ; qe := q; rs_loaded := l; rs_val := v'; rs_ver := n';
         rs_subs := rs_subs σ; subs := f |}.
Proof.
  intros H Eq <- Hg Ha Hr Hp Hf. pose proof (i1 _ H) as H1. pose proof (i2 _ H) as H2. rewrite Eq in H1, H2.
  apply inv_intro.
  - rewrite <- Hp. exact H1.
  - rewrite cnt_cons, Hg in H2. exact H2.
  - exact (ind _ H).
  - intros s. pose proof (inv_sub σ s H) as Hs. rewrite Eq, !cnt_cons, Ha, Hr in Hs. exact (Hf s _ _ Hs).
Qed.

Lemma one_inv σ s0 q m f : Inv σ ->
  (forall b, pend q b = pend (qe σ) b) -> cnt is_get q = cnt is_get (qe σ) -> NoDup m ->
  (forall s, s <> s0 -> cnt (is_add s) q = cnt (is_add s) (qe σ) /\ cnt (is_rem s) q = cnt (is_rem s) (qe σ) /\
                        mem s m = mem s (rs_subs σ) /\ f s = subs σ s) ->
  SInv (cnt (is_add s0) q) (cnt (is_rem s0) q) (mem s0 m) (rs_loaded σ) (rs_ver σ) (rs_val σ) (f s0) ->
  Inv {| truth := truth σ; answered := answered σ; qe := q; rs_loaded := rs_loaded σ; rs_val := rs_val σ;
         rs_ver := rs_ver σ; rs_subs := m; subs := f |}.
Proof.
  intros H Hp Hg Hnd Hoth H0. apply inv_intro; [rewrite Hp; exact (i1 _ H)|rewrite Hg; exact (i2 _ H)|exact Hnd|].
  intros s. destruct (Nat.eq_dec s s0) as [->|Hne]; [exact H0|].
  destruct (Hoth s Hne) as (-> & -> & -> & ->). exact (inv_sub σ s H).
Qed.

Lemma inv_subscribe σ s0 : Inv σ -> Inv (step σ (Subscribe s0)).
Proof.
  intros H. cbn [step]. destruct (subscribed (subs σ s0)) eqn:Es; [exact H|].
  apply one_inv with (s0 := s0); [exact H|..].
  - intros b. apply pend_app.
  - rewrite cnt_snoc. apply Nat.add_0_r.
  - exact (ind _ H).
  - intros s Hne. rewrite !cnt_snoc, set_sub_neq by exact Hne. cbn [is_add is_rem]. rewrite (eqb_other Hne), !Nat.add_0_r.
    repeat split; reflexivity.
  - rewrite set_sub_eq, !cnt_snoc. cbn [is_add is_rem]. rewrite Nat.eqb_refl, Nat.add_0_r.
    destruct (inv_sub σ s0 H) as [H3 H3g H4 H5 H6 H7 H8 H9 Hgl Hcg Hrm]. rewrite Es in H3g.
    constructor; cbn [subscribed loaded sver sval flag eq cq gone closed]; try assumption; cbn [b2n] in *; lia.
Qed.

Definition with_subs_q (σ : st) (q : list eitem) (f : nat -> sub) : st :=
  {| truth := truth σ; answered := answered σ; qe := q; rs_loaded := rs_loaded σ; rs_val := rs_val σ;
     rs_ver := rs_ver σ; rs_subs := rs_subs σ; subs := f |}.
Definition with_subs (σ : st) (f : nat -> sub) : st := with_subs_q σ (qe σ) f.

Lemma upd_inv σ s0 x' (k : bool) : Inv σ ->
  subscribed x' = subscribed (subs σ s0) ->
  b2n (loaded x') + b2n k + cnt is_ld (cq x') = b2n (loaded (subs σ s0)) + cnt is_ld (cq (subs σ s0)) ->
  (loaded x' = true -> replay (sver x', sval x') (eq x' ++ evs (cq x')) = (rs_ver σ, rs_val σ)) ->
  (forall e, In e (evs (cq x')) -> In e (evs (cq (subs σ s0)))) ->
  (loaded x' = false -> eq x' = []) -> (flag x' = false -> eq x' = []) ->
  (gone (subs σ s0) = true -> gone x' = true) ->
  (closed x' = true -> gone x' = true) ->
  (gone x' = true -> loaded x' = false) ->
  (k = true -> gone x' = true) ->
  Inv (with_subs_q σ (if k then qe σ ++ [IRemSub s0] else qe σ) (set_sub (subs σ) s0 x')).
Proof.
  intros H Hs Hc Hr Hi He Hf Hmono Hcg' Hgl' Hk.
  apply one_inv with (s0 := s0); [exact H|..].
  - intros b. destruct k; [apply pend_app|reflexivity].
  - rewrite cnt_opt, andb_false_r. apply Nat.add_0_r.
  - exact (ind _ H).
  - intros s Hne. rewrite !cnt_opt, set_sub_neq by exact Hne. cbn [is_add is_rem].
    rewrite (eqb_other Hne), !andb_false_r, !Nat.add_0_r. repeat split; reflexivity.
  - rewrite set_sub_eq, !cnt_opt. cbn [is_add is_rem]. rewrite Nat.eqb_refl, andb_false_r, andb_true_r, Nat.add_0_r.
    destruct (inv_sub σ s0 H) as [H3 H3g H4 H5 H6 H7 H8 H9 Hgl Hcg Hrm].
    assert (Hgf : gone x' = false -> gone (subs σ s0) = false).
    { intros Hg. destruct (gone (subs σ s0)); [rewrite Hmono in Hg by reflexivity; discriminate|reflexivity]. }
    constructor; try assumption.
    + rewrite Hs. intros Hg. apply H3, Hgf, Hg.
    + rewrite Hs. exact H3g.
    + lia.
    + intros e Hin. apply H6, Hi, Hin.
    + (* before the resource is loaded x' has no more events than the old record, that is none *)
      intros Hrl. destruct (H9 Hrl) as [Hev Hld]. rewrite Hrl, andb_false_r in H4. cbn [b2n] in H4. split; [|lia].
      apply incl_l_nil. rewrite <- Hev. exact Hi.
    + intros Hg. destruct k; [rewrite Hk in Hg by reflexivity; discriminate|]. rewrite (Hrm (Hgf Hg)). reflexivity.
Qed.

Lemma local_inv σ s0 x' : Inv σ ->
  subscribed x' = subscribed (subs σ s0) -> loaded x' = loaded (subs σ s0) -> cq x' = cq (subs σ s0) ->
  gone x' = gone (subs σ s0) -> closed x' = closed (subs σ s0) ->
  (loaded (subs σ s0) = true ->
     replay (sver x', sval x') (eq x' ++ evs (cq x')) =
     replay (sver (subs σ s0), sval (subs σ s0)) (eq (subs σ s0) ++ evs (cq (subs σ s0)))) ->
  (loaded (subs σ s0) = false -> eq x' = []) ->
  (flag x' = false -> eq x' = []) ->
  Inv (with_subs σ (set_sub (subs σ) s0 x')).
Proof.
  intros H Hs Hl Hc Hg Hcl Hr He Hf.
  apply (upd_inv σ s0 x' false H); try assumption.
  - rewrite Hc, Hl, Nat.add_0_r. reflexivity.
  - rewrite Hl. intros Hld. rewrite Hr by assumption. apply (i5 _ H), Hld.
  - rewrite Hc. auto.
  - rewrite Hl. exact He.
  - rewrite Hg. auto.
  - rewrite Hcl, Hg. apply (icg _ H).
  - rewrite Hg, Hl. apply (igl _ H).
  - discriminate.
Qed.

Lemma drain_fields x c :
  subscribed (drain x c) = subscribed x /\ loaded (drain x c) = loaded x /\ cq (drain x c) = cq x /\
  (forall E, replay (sver (drain x c), sval (drain x c)) (eq (drain x c) ++ E) = replay (sver x, sval x) (eq x ++ E)) /\
  (eq x = [] -> eq (drain x c) = []) /\ (flag (drain x c) = false -> eq (drain x c) = []) /\
  gone (drain x c) = gone x /\ closed (drain x c) = closed x.
Proof.
  unfold drain. destruct (replay (sver x, sval x) (firstn c (eq x))) as [ver v] eqn:Er.
  cbn. repeat split; auto.
  - intros E. rewrite <- (firstn_skipn c (eq x)) at 2. rewrite <- app_assoc, replay_app, Er. reflexivity.
  - intros He. rewrite He. destruct c; reflexivity.
  - destruct (skipn c (eq x)); [reflexivity|discriminate].
Qed.

(* snt: Respond sets the sent flag, Unqueue keeps it *)
Lemma drain_inv σ s0 c snt : Inv σ -> let x := subs σ s0 in
  Inv (with_subs σ (set_sub (subs σ) s0 (drain (with_sub x (sver x) (sval x) (flag x) (eq x) snt) c))).
Proof.
  intros H x. set (x1 := with_sub x (sver x) (sval x) (flag x) (eq x) snt).
  destruct (drain_fields x1 c) as (A & B & C & D & F & G & Gg & Gc).
  apply local_inv; auto.
  - intros _. rewrite C. apply D.
  - intros Hl. apply F, (i7 _ H), Hl.
Qed.

Lemma inv_unqueue σ s0 c : Inv σ -> Inv (step σ (Unqueue s0 c)).
Proof.
  intros H. cbn [step].
  destruct (loaded (subs σ s0) && sent (subs σ s0) && flag (subs σ s0)); [|assumption].
  exact (drain_inv σ s0 c (sent (subs σ s0)) H).
Qed.

Lemma inv_respond σ s0 c : Inv σ -> Inv (step σ (Respond s0 c)).
Proof.
  intros H. cbn [step].
  destruct (loaded (subs σ s0) && negb (sent (subs σ s0))); [|assumption].
  exact (drain_inv σ s0 c true H).
Qed.

Lemma inv_startqueue σ s0 : Inv σ -> Inv (step σ (StartQueue s0)).
Proof.
  intros H. cbn [step].
  destruct (loaded (subs σ s0) && sent (subs σ s0)); [|assumption].
  apply local_inv; auto.
  - apply (i7 _ H).
  - discriminate.
Qed.

Lemma inv_dispose σ s0 cl : Inv σ -> Inv (step σ (Dispose s0 cl)).
Proof.
  intros H. cbn [step].
  destruct (gone (subs σ s0)) eqn:Eg.
  - destruct cl; [|assumption].
    apply (upd_inv σ s0 _ false H); cbn [dispose subscribed loaded cq eq gone closed];
      try reflexivity; try discriminate; auto.
    rewrite (igl _ H s0 Eg). reflexivity.
  - apply (upd_inv σ s0 _ (loaded (subs σ s0)) H); cbn [dispose subscribed loaded cq eq gone closed];
      try reflexivity; try discriminate; auto.
Qed.

Lemma inv_runc σ s0 : Inv σ -> Inv (step σ (RunC s0)).
Proof.
  intros H. cbn [step]. destruct (inv_sub σ s0 H) as [_ _ H4 H5 H6 H7 H8 _ Hgl Hcg _].
  destruct (cq (subs σ s0)) as [|[|e|] q] eqn:Ecq; [assumption| | |].
  - (* its Loaded task is still queued, so it is not loaded *)
    rewrite cnt_cons in H4. pose proof (b2n_le (mem s0 (rs_subs σ) && rs_loaded σ)).
    assert (Hl0 : loaded (subs σ s0) = false) by (destruct (loaded (subs σ s0)); cbn [is_ld b2n] in *; [lia|reflexivity]).
    destruct (gone (subs σ s0)) eqn:Eg.
    + apply (upd_inv σ s0 _ true H); rewrite ?Ecq, ?Hl0; cbn [subscribed loaded cq eq gone closed flag sver sval];
        try reflexivity; try discriminate; auto.
    + apply (upd_inv σ s0 _ false H); rewrite ?Ecq, ?Hl0; cbn [subscribed loaded cq eq gone closed flag sver sval];
        try reflexivity; try discriminate; auto.
      * intros _. apply replay_stale. exact H6.
      * rewrite Eg. discriminate.
  - destruct (loaded (subs σ s0)) eqn:El; cbn [negb].
    + specialize (H5 Logic.eq_refl).
      destruct (flag (subs σ s0)).
      * apply (upd_inv σ s0 _ false H); rewrite ?Ecq, ?El; cbn [subscribed loaded cq eq gone closed flag sver sval];
          try reflexivity; try discriminate; auto.
        -- intros _. rewrite <- app_assoc. exact H5.
        -- intros e' Hin. right. exact Hin.
      * (* nothing is held when the flag is down *)
        destruct (proc (sver (subs σ s0), sval (subs σ s0)) e) as [ver v] eqn:Ep.
        pose proof (H8 Logic.eq_refl) as Heq0. rewrite Heq0 in H5.
        apply (upd_inv σ s0 _ false H); rewrite ?Ecq, ?El, ?Heq0; cbn [subscribed loaded cq eq gone closed flag sver sval];
          try reflexivity; try discriminate; auto.
        -- intros _. rewrite <- H5, <- Ep. reflexivity.
        -- intros e' Hin. right. exact Hin.
    + apply (upd_inv σ s0 _ false H); rewrite ?Ecq, ?El; cbn [subscribed loaded cq eq gone closed flag sver sval];
        try reflexivity; try discriminate; auto.
      intros e' Hin. right. exact Hin.
  - apply (upd_inv σ s0 _ false H); rewrite ?Ecq; cbn [subscribed loaded cq eq gone closed flag sver sval];
      try reflexivity; try discriminate; auto.
Qed.

Lemma loaded_mem σ s : Inv σ -> loaded (subs σ s) = true -> mem s (rs_subs σ) = true /\ rs_loaded σ = true.
Proof.
  intros H Hl. pose proof (i4 _ H s) as H4. rewrite Hl in H4.
  destruct (mem s (rs_subs σ)), (rs_loaded σ); cbn in *; try lia; split; reflexivity.
Qed.

(* A task c that is no Loaded task goes to x if x is an open member.  The event c carries, if any, takes the cached
   resource from (n, v) to (n', v'); a subscription that does not get the task is not loaded, and no version concerns it. *)
Lemma sinv_push na nr m l n v n' v' x c : SInv na nr m l n v x -> is_ld c = false ->
  replay (n, v) (evs [c]) = (n', v') -> n <= n' ->
  (forall e, In e (evs [c]) -> e_upd e <> None -> e_ver e < n') -> (l = false -> evs [c] = []) ->
  SInv na nr m l n' v' (if m && negb (closed x) then push_c x c else x).
Proof.
  intros [H3 H3g H4 H5 H6 H7 H8 H9 Hgl Hcg Hrm] Hc Hrep Hle Hlt Hnl.
  destruct (m && negb (closed x)) eqn:Eb.
  - constructor; cbn [push_c subscribed loaded sver sval flag eq cq gone closed]; try assumption.
    + rewrite cnt_snoc, Hc, Nat.add_0_r. exact H4.
    + intros Hl. rewrite evs_app, app_assoc, replay_app, (H5 Hl). exact Hrep.
    + intros e Hin Hne. rewrite evs_app in Hin. apply in_app_or in Hin as [Hin|Hin]; [|exact (Hlt e Hin Hne)].
      specialize (H6 e Hin Hne). lia.
    + intros El. destruct (H9 El) as [Hev Hld]. rewrite evs_app, cnt_snoc, Hev, Hld, Hc, (Hnl El). split; reflexivity.
  - assert (Hl : loaded x = false).
    { destruct (loaded x) eqn:El; [|reflexivity]. destruct m; [|cbn [andb b2n] in H4; lia].
      destruct (closed x); [|discriminate Eb]. discriminate (Hgl (Hcg Logic.eq_refl)). }
    constructor; try assumption.
    + rewrite Hl. discriminate.
    + intros e Hin Hne. specialize (H6 e Hin Hne). lia.
Qed.

Lemma sinv_load na nr m n v n' v' x : SInv na nr m false n v x ->
  SInv na (nr + b2n (m && closed x)) m true n' v' (if m && negb (closed x) then push_c x CLoaded else x).
Proof.
  intros [H3 H3g H4 H5 H6 H7 H8 H9 Hgl Hcg Hrm]. destruct (H9 Logic.eq_refl) as [Hev Hld].
  rewrite andb_false_r in H4. cbn [b2n] in H4.
  assert (Hl : loaded x = false) by (destruct (loaded x); [cbn [b2n] in H4; lia|reflexivity]).
  assert (Hr : nr = 0) by lia. subst nr.
  (* nothing is loaded and no connection queue holds an event yet: j5, j6 and j9 hold for want of a case *)
  destruct (m && negb (closed x)) eqn:Eb.
  - apply andb_prop in Eb as [-> Ec]. apply negb_true_iff in Ec. rewrite Ec.
    constructor; cbn [push_c subscribed loaded sver sval flag eq cq gone closed andb b2n];
      rewrite ?evs_app, ?Hev, ?Hl; auto; try discriminate; try (intros e []).
    rewrite cnt_snoc, Hld. reflexivity.
  - constructor; rewrite ?Hev, ?Hl; auto; try discriminate; try (intros e []).
    + rewrite Hld. destruct m, (closed x); try discriminate Eb; reflexivity.
    + intros Hg. destruct (closed x); [rewrite (Hcg Logic.eq_refl) in Hg; discriminate|]. rewrite andb_false_r. reflexivity.
Qed.

(* the one pending IAddSub is traded for membership *)
Lemma sinv_join na nr m l n v x : SInv (S na) nr m l n v x -> m = false /\
  SInv na (nr + b2n (l && closed x)) true l n v (if l && negb (closed x) then push_c x CLoaded else x).
Proof.
  intros [H3 H3g H4 H5 H6 H7 H8 H9 Hgl Hcg Hrm]. pose proof (b2n_le (subscribed x)).
  destruct m; cbn [b2n andb] in *; [lia|]. split; [reflexivity|].
  assert (A3 : gone x = false -> na + 1 = b2n (subscribed x)) by (intros Hg; specialize (H3 Hg); lia).
  assert (A3g : na + 1 <= b2n (subscribed x)) by lia.
  assert (Hl : loaded x = false) by (destruct (loaded x); [cbn [b2n] in H4; lia|reflexivity]).
  destruct (l && negb (closed x)) eqn:Eb.
  - apply andb_prop in Eb as [-> Ec]. apply negb_true_iff in Ec. rewrite Ec.
    constructor; cbn [push_c subscribed loaded sver sval flag eq cq gone closed andb b2n]; auto; try discriminate.
    + rewrite cnt_snoc, Hl. cbn [is_ld b2n]. lia.
    + rewrite Hl. discriminate.
    + intros e Hin. rewrite evs_app in Hin. apply in_app_or in Hin as [Hin|[]]. apply H6, Hin.
    + intros Hg. rewrite (Hrm Hg). reflexivity.
  - constructor; cbn [andb b2n]; auto.
    + rewrite Hl. destruct l, (closed x); try discriminate Eb; cbn [andb b2n]; lia.
    + intros Hg. rewrite (Hrm Hg). destruct (closed x); [rewrite (Hcg Logic.eq_refl) in Hg; discriminate|].
      rewrite andb_false_r. reflexivity.
Qed.

(* A subscriber is released: by then it is disposed and holds nothing. *)
Lemma sinv_leave na nr m l n v x : SInv na (S nr) m l n v x -> SInv na nr false l n v x.
Proof.
  intros [H3 H3g H4 H5 H6 H7 H8 H9 Hgl Hcg Hrm]. pose proof (b2n_le (m && l)).
  assert (Eg : gone x = true) by (destruct (gone x); [reflexivity|discriminate (Hrm Logic.eq_refl)]).
  pose proof (Hgl Eg) as Hl. rewrite Hl in H4. cbn [b2n] in H4.
  constructor; try assumption; rewrite ?Eg, ?Hl; try discriminate; cbn [andb b2n]; lia.
Qed.

Lemma inv_rune σ : Inv σ -> Inv (step σ RunE).
Proof.
  intros H. cbn [step].
  destruct (qe σ) as [|[u| |v|s0|s0| |n0] q] eqn:Eq; [assumption| | | | | | |].
  - destruct (rs_loaded σ) eqn:Erl; [destruct (norm u (rs_val σ)) as [u'|] eqn:En|].
    + apply (head_inv σ (IEvent u) q true _ _ _ H Eq Erl); try reflexivity.
      intros s na nr Hs. unfold push_all. eapply sinv_push; try exact Hs; try reflexivity; try discriminate.
      * cbn. rewrite Nat.eqb_refl, (norm_some _ _ _ En). reflexivity.
      * apply Nat.le_succ_diag_r.
      * intros e [<-|[]] _. apply Nat.lt_succ_diag_r.
    + apply (head_inv σ (IEvent u) q _ _ _ _ H Eq Erl); try reflexivity; auto. cbn. rewrite (norm_none _ _ En). reflexivity.
    + apply (head_inv σ (IEvent u) q _ _ _ _ H Eq Erl); try reflexivity; auto.
  - destruct (rs_loaded σ) eqn:Erl.
    + apply (head_inv σ ICustom q true _ _ _ H Eq Erl); try reflexivity.
      intros s na nr Hs. unfold push_all. eapply sinv_push; try exact Hs; try reflexivity; try discriminate.
      * cbn. rewrite Nat.eqb_refl. reflexivity.
      * intros e [<-|[]] Hne. contradiction Hne. reflexivity.
    + apply (head_inv σ ICustom q _ _ _ _ H Eq Erl); try reflexivity; auto.
  - pose proof (i1 _ H) as H1. pose proof (i2 _ H) as H2. rewrite Eq, cnt_cons in *. cbn [is_get b2n] in H2.
    pose proof (b2n_le (answered σ)).
    assert (Erl : rs_loaded σ = false) by (destruct (rs_loaded σ); cbn [b2n] in *; [lia|reflexivity]).
    rewrite Erl in H1, H2. apply inv_intro.
    + rewrite pend_app', pend_refused. exact H1.
    + rewrite cnt_app, cnt_refused_0 by reflexivity. cbn [b2n] in *. lia.
    + exact (ind _ H).
    + intros s. pose proof (inv_sub σ s H) as Hs. rewrite Eq, Erl, !cnt_cons in Hs. cbn [is_add is_rem b2n Nat.add] in Hs.
      rewrite !cnt_app, (cnt_refused_0 (is_add s)), (cnt_refused_rem _ _ _ (ind _ H)), Nat.add_0_r by reflexivity.
      unfold push_all. eapply sinv_load, Hs.
  - pose proof (inv_sub σ s0 H) as Hs. rewrite Eq, !cnt_cons in Hs. cbn [is_add is_rem] in Hs.
    rewrite Nat.eqb_refl in Hs. cbn [b2n Nat.add] in Hs.
    apply sinv_join in Hs as [Hm0 Hs].
    apply one_inv with (s0 := s0); [exact H|..].
    + intros b. rewrite Eq. destruct (rs_loaded σ && closed (subs σ s0)); [apply pend_app|reflexivity].
    + rewrite Eq, cnt_opt, andb_false_r. apply Nat.add_0_r.
    + constructor; [rewrite <- mem_In, Hm0; discriminate|exact (ind _ H)].
    + intros s Hne. rewrite Eq, !cnt_opt, !cnt_cons, mem_cons. cbn [is_add is_rem].
      rewrite (Nat.eqb_sym s s0), (eqb_other Hne), !andb_false_r, !Nat.add_0_r. repeat split; try reflexivity.
      destruct (rs_loaded σ && negb (closed (subs σ s0))); [apply set_sub_neq, Hne|reflexivity].
    + rewrite !cnt_opt, mem_cons. cbn [is_add is_rem]. rewrite !Nat.eqb_refl, andb_false_r, andb_true_r, Nat.add_0_r.
      destruct (rs_loaded σ && negb (closed (subs σ s0))); [rewrite set_sub_eq|]; exact Hs.
  - pose proof (inv_sub σ s0 H) as Hs. rewrite Eq, !cnt_cons in Hs. cbn [is_add is_rem] in Hs.
    rewrite Nat.eqb_refl in Hs. cbn [b2n Nat.add] in Hs.
    apply one_inv with (s0 := s0); [exact H|..].
    + intros b. rewrite Eq. reflexivity.
    + rewrite Eq. reflexivity.
    + apply NoDup_remove, (ind _ H).
    + intros s Hne. rewrite Eq, !cnt_cons, (mem_remove_other _ _ _ Hne). cbn [is_add is_rem]. rewrite (eqb_other Hne).
      repeat split; reflexivity.
    + rewrite mem_remove_same. eapply sinv_leave, Hs.
  - apply (head_inv σ IReacc q _ _ _ _ H Eq Logic.eq_refl); try reflexivity.
    intros s na nr Hs. unfold push_all. eapply sinv_push; try exact Hs; try reflexivity. intros e [].
  - apply (head_inv σ (INop n0) q _ _ _ _ H Eq Logic.eq_refl); try reflexivity; auto.
Qed.

Theorem step_inv σ a : Inv σ -> Inv (step σ a).
Proof.
  intros H. destruct a as [u| | |n| |s|s cl| |s|s c|s c|s].
  (* each of the service's five actions appends an item to the resource queue *)
  3: cbn [step]; destruct (answered σ) eqn:Ea; [exact H|].
  1-5: apply (push_inv σ _ _ _ H); rewrite ?Ea; try reflexivity.
  - cbn [pstep]. destruct (answered σ); reflexivity.
  - apply inv_subscribe, H.
  - apply inv_dispose, H.
  - apply inv_rune, H.
  - apply inv_runc, H.
  - apply inv_respond, H.
  - apply inv_unqueue, H.
  - apply inv_startqueue, H.
Qed.

Theorem run_inv t acts : Inv (run t acts).
Proof.
  unfold run. generalize (init_inv t). generalize (init t).
  induction acts as [|a acts IH]; intros σ H; cbn; [exact H|]. apply IH, step_inv, H.
Qed.

(* quiescent: the get request was answered, the resource queue is drained, and every connection
   has drained its queue and holds no queued events *)
Definition quiescent (σ : st) : Prop :=
  answered σ = true /\ qe σ = [] /\ forall s, cq (subs σ s) = [] /\ eq (subs σ s) = [].

Lemma quiescent_converged σ s : Inv σ ->
  quiescent σ -> subscribed (subs σ s) = true -> gone (subs σ s) = false ->
  loaded (subs σ s) = true /\ sval (subs σ s) = truth σ /\ rs_val σ = truth σ.
Proof.
  intros H (Ha & Hq & Hs) Hsub Hgn. destruct (Hs s) as [Hc He].
  pose proof (i1 _ H) as H1. pose proof (i2 _ H) as H2. destruct (inv_sub σ s H) as [H3 _ H4 H5 _ _ _ _ _ _ _].
  rewrite Hq, Ha in H1, H2. rewrite Hq, Hsub in H3. rewrite Hq, Hc in H4. rewrite Hc, He in H5.
  destruct (rs_loaded σ); [|discriminate H2]. injection H1 as H1.
  specialize (H3 Hgn). destruct (mem s (rs_subs σ)); [|discriminate H3].
  destruct (loaded (subs σ s)); [|discriminate H4].
  injection (H5 Logic.eq_refl) as _ Hv. repeat split; congruence.
Qed.

(* Every reachable quiescent state: each subscribed connection that was not disposed has loaded the resource,
   and the copy it holds (the snapshot it was or will be sent, updated by every event delivered since) IS the
   state the service last announced; the cache holds the same value. For every schedule, any number of subscribers. *)
Theorem single_resource_convergence : forall t acts s,
  let σ := run t acts in
  quiescent σ -> subscribed (subs σ s) = true -> gone (subs σ s) = false ->
  loaded (subs σ s) = true /\ sval (subs σ s) = truth σ /\ rs_val σ = truth σ.
Proof. intros t acts s. apply quiescent_converged, run_inv. Qed.

(* Nothing is left behind for a disposed subscription (failed request, access denied, closed connection): once the queues
   are drained and the get request answered, the cache no longer lists it as a subscriber and it holds nothing. *)
Lemma quiescent_released σ s : Inv σ ->
  quiescent σ -> gone (subs σ s) = true ->
  mem s (rs_subs σ) = false /\ loaded (subs σ s) = false /\ eq (subs σ s) = [].
Proof.
  intros H (Ha & Hq & Hs) Hgn. destruct (Hs s) as [Hc He].
  pose proof (i2 _ H) as H2. pose proof (i4 _ H s) as H4. pose proof (igl _ H s Hgn) as Hl.
  rewrite Hq, Ha in H2. rewrite Hq, Hc, Hl in H4.
  destruct (rs_loaded σ); [|discriminate H2]. destruct (mem s (rs_subs σ)); [discriminate H4|]. auto.
Qed.

Theorem disposed_released : forall t acts s,
  let σ := run t acts in
  quiescent σ -> gone (subs σ s) = true ->
  mem s (rs_subs σ) = false /\ loaded (subs σ s) = false /\ eq (subs σ s) = [].
Proof. intros t acts s. apply quiescent_released, run_inv. Qed.

End Conv.

Print Assumptions single_resource_convergence.
Print Assumptions disposed_released.

(* non-vacuity: a concrete schedule that reaches a quiescent state with two subscribers, an update that
   lands before one snapshot and after the other, and a queued event drained after the response *)
Definition acts_ex : list (action nat) :=
  [Subscribe nat 1; SvcAnswer nat; RunE nat; RunE nat; SvcUpdate nat 5; RunC nat 1; RunE nat; Subscribe nat 2; RunE nat;
   SvcUpdate nat 7; RunE nat; RunC nat 2; RunC nat 1; RunC nat 1; Respond nat 1 5; RunC nat 2; Respond nat 2 5].
Definition sigma_ex := run nat nat (fun u v => u + v) (fun u v => if Nat.eqb u 0 then None else Some u) 0 100 acts_ex.
Eval vm_compute in (@truth nat nat sigma_ex, @rs_val nat nat sigma_ex, @rs_ver nat nat sigma_ex,
                    @sval nat nat (@subs nat nat sigma_ex 1), @sval nat nat (@subs nat nat sigma_ex 2),
                    @qe nat nat sigma_ex, @cq nat nat (@subs nat nat sigma_ex 1), @cq nat nat (@subs nat nat sigma_ex 2),
                    @eq nat nat (@subs nat nat sigma_ex 1), @eq nat nat (@subs nat nat sigma_ex 2)).

(* non-vacuity with disposal: subscriber 1 is disposed before the resource is loaded (released when its Loaded task runs),
   subscriber 2's connection closes while it is loaded (released by Dispose), subscriber 3 survives and converges.
   Reaccess events: one is fanned out BEFORE the resource is loaded (every subscriber, also the disposed one, gets a
   CReacc task; subscriber 1 runs it before the get response arrives, 2 and 3 after it, in front of their Loaded task),
   one after an update once the resource is loaded, and one that the closing connection 2 refuses. *)
Definition acts_ex2 : list (action nat) :=
  [Subscribe nat 1; Subscribe nat 2; Subscribe nat 3; RunE nat; RunE nat; RunE nat; Dispose nat 1 false;
   SvcReacc nat; RunE nat; RunC nat 1;
   SvcAnswer nat; RunE nat; RunC nat 1; RunC nat 2; RunC nat 2; RunC nat 3; RunC nat 3; Respond nat 2 0; Respond nat 3 0;
   SvcUpdate nat 5; SvcReacc nat; RunE nat; RunE nat; RunE nat; RunC nat 2; RunC nat 2; RunC nat 3; RunC nat 3;
   SvcReacc nat; Dispose nat 2 true; RunE nat; RunE nat; RunC nat 3].
Definition sigma_ex2 := run nat nat (fun u v => u + v) (fun u v => if Nat.eqb u 0 then None else Some u) 0 100 acts_ex2.
Eval vm_compute in (@rs_subs nat nat sigma_ex2, @truth nat nat sigma_ex2, @rs_val nat nat sigma_ex2,
                    @sval nat nat (@subs nat nat sigma_ex2 3), @loaded nat nat (@subs nat nat sigma_ex2 3),
                    (@gone nat nat (@subs nat nat sigma_ex2 1), @gone nat nat (@subs nat nat sigma_ex2 2),
                     @gone nat nat (@subs nat nat sigma_ex2 3)),
                    (@closed nat nat (@subs nat nat sigma_ex2 1), @closed nat nat (@subs nat nat sigma_ex2 2)),
                    @qe nat nat sigma_ex2).
(* the state after the first reaccess event was fanned out: the resource is not loaded, yet every connection queue holds a
   task (i9 does not say that the connection queues are empty before the resource is loaded, only that they hold no
   events and no Loaded task) *)
Definition sigma_ex2_pre :=
  run nat nat (fun u v => u + v) (fun u v => if Nat.eqb u 0 then None else Some u) 0 100 (firstn 9 acts_ex2).
Example ex2_reacc_before_load :
  @rs_loaded nat nat sigma_ex2_pre = false /\ @answered nat nat sigma_ex2_pre = false /\
  @cq nat nat (@subs nat nat sigma_ex2_pre 1) = [CReacc nat] /\ @cq nat nat (@subs nat nat sigma_ex2_pre 2) = [CReacc nat] /\
  @cq nat nat (@subs nat nat sigma_ex2_pre 3) = [CReacc nat].
Proof. vm_compute. repeat split. Qed.
(* after the get response: the reaccess task sits in front of the Loaded task of subscribers 2 and 3 *)
Definition sigma_ex2_mid :=
  run nat nat (fun u v => u + v) (fun u v => if Nat.eqb u 0 then None else Some u) 0 100 (firstn 12 acts_ex2).
Example ex2_reacc_then_loaded :
  @rs_loaded nat nat sigma_ex2_mid = true /\
  @cq nat nat (@subs nat nat sigma_ex2_mid 1) = [CLoaded nat] /\
  @cq nat nat (@subs nat nat sigma_ex2_mid 2) = [CReacc nat; CLoaded nat] /\
  @cq nat nat (@subs nat nat sigma_ex2_mid 3) = [CReacc nat; CLoaded nat].
Proof. vm_compute. repeat split. Qed.
(* loaded resource: the update and the reaccess event are both fanned out, in order *)
Definition sigma_ex2_post :=
  run nat nat (fun u v => u + v) (fun u v => if Nat.eqb u 0 then None else Some u) 0 100 (firstn 24 acts_ex2).
Example ex2_reacc_after_load :
  @rs_loaded nat nat sigma_ex2_post = true /\ @rs_subs nat nat sigma_ex2_post = [3; 2] /\
  @cq nat nat (@subs nat nat sigma_ex2_post 1) = [] /\
  @cq nat nat (@subs nat nat sigma_ex2_post 2) = [CEvent nat {| e_ver := 0; e_upd := Some 5 |}; CReacc nat] /\
  @cq nat nat (@subs nat nat sigma_ex2_post 3) = [CEvent nat {| e_ver := 0; e_upd := Some 5 |}; CReacc nat].
Proof. vm_compute. repeat split. Qed.
(* the last reaccess event: connection 2 is closing and refuses the task, subscriber 3 gets it *)
Definition sigma_ex2_last :=
  run nat nat (fun u v => u + v) (fun u v => if Nat.eqb u 0 then None else Some u) 0 100 (firstn 31 acts_ex2).
Example ex2_reacc_refused :
  @closed nat nat (@subs nat nat sigma_ex2_last 2) = true /\ @rs_subs nat nat sigma_ex2_last = [3; 2] /\
  @cq nat nat (@subs nat nat sigma_ex2_last 2) = [] /\ @cq nat nat (@subs nat nat sigma_ex2_last 3) = [CReacc nat].
Proof. vm_compute. repeat split. Qed.
Example ex2_subs : @rs_subs nat nat sigma_ex2 = [3].
Proof. vm_compute. reflexivity. Qed.
Lemma ex2_quiescent : quiescent nat nat sigma_ex2.
Proof.
  (* by cases on s before evaluating: with s a variable the normal form of [subs sigma_ex2 s] is a tree of all 33 updates *)
  repeat split; try destruct s as [|[|[|[|s]]]]; vm_compute; reflexivity.
Qed.
Example ex2_gone1 : @gone nat nat (@subs nat nat sigma_ex2 1) = true /\ @subscribed nat nat (@subs nat nat sigma_ex2 1) = true.
Proof. vm_compute. repeat split. Qed.
Example ex2_gone2 : @gone nat nat (@subs nat nat sigma_ex2 2) = true /\ @closed nat nat (@subs nat nat sigma_ex2 2) = true.
Proof. vm_compute. repeat split. Qed.
Example ex2_live3 : @subscribed nat nat (@subs nat nat sigma_ex2 3) = true /\ @gone nat nat (@subs nat nat sigma_ex2 3) = false.
Proof. vm_compute. repeat split. Qed.

(* both theorems instantiated on this run (run is made opaque only to keep the elaborator from evaluating it) *)
Lemma ex_norm_none : forall u v : nat, (if Nat.eqb u 0 then None else Some u) = None -> u + v = v.
Proof. intros u v. destruct (Nat.eqb_spec u 0) as [->|]; [reflexivity|discriminate]. Qed.
Lemma ex_norm_some : forall u v u' : nat, (if Nat.eqb u 0 then None else Some u) = Some u' -> u' + v = u + v.
Proof. intros u v u'. destruct (Nat.eqb u 0); [discriminate|]. intros E. injection E as <-. reflexivity. Qed.
Opaque run.
Lemma ex2_converged3 : @loaded nat nat (@subs nat nat sigma_ex2 3) = true /\
  @sval nat nat (@subs nat nat sigma_ex2 3) = @truth nat nat sigma_ex2 /\ @rs_val nat nat sigma_ex2 = @truth nat nat sigma_ex2.
Proof.
  exact (single_resource_convergence nat nat (fun u v => u + v) (fun u v => if Nat.eqb u 0 then None else Some u) 0
           ex_norm_none ex_norm_some 100 acts_ex2 3 ex2_quiescent (proj1 ex2_live3) (proj2 ex2_live3)).
Qed.
Lemma ex2_released1 : mem 1 (@rs_subs nat nat sigma_ex2) = false /\
  @loaded nat nat (@subs nat nat sigma_ex2 1) = false /\ @eq nat nat (@subs nat nat sigma_ex2 1) = [].
Proof.
  exact (disposed_released nat nat (fun u v => u + v) (fun u v => if Nat.eqb u 0 then None else Some u) 0
           ex_norm_none ex_norm_some 100 acts_ex2 1 ex2_quiescent (proj1 ex2_gone1)).
Qed.
Lemma ex2_released2 : mem 2 (@rs_subs nat nat sigma_ex2) = false /\
  @loaded nat nat (@subs nat nat sigma_ex2 2) = false /\ @eq nat nat (@subs nat nat sigma_ex2 2) = [].
Proof.
  exact (disposed_released nat nat (fun u v => u + v) (fun u v => if Nat.eqb u 0 then None else Some u) 0
           ex_norm_none ex_norm_some 100 acts_ex2 2 ex2_quiescent (proj1 ex2_gone2)).
Qed.
Transparent run.
