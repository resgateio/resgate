(* C19: model of rescache.Throttle (server/rescache/throttle.go) *)
From Coq Require Import List Arith Lia Bool.
Import ListNotations.

Record thr := { limit : nat; running : nat; queue : list nat }.

Inductive op := Add (id : nat) | Done.
Inductive res := Ok (t : thr) (ran : list nat) | Crash.   (* ran: starters executed by this call (directly or via `go cb()`) *)

Definition step (t : thr) (o : op) : res :=
  match o with
  | Add id =>
      if limit t <=? running t
      then Ok {| limit := limit t; running := running t; queue := queue t ++ [id] |} []
      else Ok {| limit := limit t; running := S (running t); queue := queue t |} [id]
  | Done =>
      if running t =? 0 then Crash                                   (* panic("throttle: negative running counter") *)
      else match queue t with
           | [] => Ok {| limit := limit t; running := running t - 1; queue := [] |} []
           | id :: q => Ok {| limit := limit t; running := running t; queue := q |} [id]
           end
  end.

(* ghost history: what was added, what was started (in order), how many Done calls *)
Record hist := { t_ : thr; added : list nat; started : list nat; ndone : nat; crashed : bool }.
Definition init (n : nat) : hist :=
  {| t_ := {| limit := n; running := 0; queue := [] |}; added := []; started := []; ndone := 0; crashed := false |}.

Definition hstep (h : hist) (o : op) : hist :=
  if crashed h then h else
  match step (t_ h) o with
  | Crash => {| t_ := t_ h; added := added h; started := started h; ndone := ndone h; crashed := true |}
  | Ok t' ran =>
      {| t_ := t'; added := (match o with Add id => added h ++ [id] | Done => added h end);
         started := started h ++ ran; ndone := (match o with Done => S (ndone h) | _ => ndone h end); crashed := false |}
  end.

(* environment contract: Done is only called for a starter that ran and has not been Done yet *)
Fixpoint wf (h : hist) (ops : list op) : Prop :=
  match ops with
  | [] => True
  | o :: ops' => (match o with Done => ndone h < length (started h) | Add _ => True end) /\ wf (hstep h o) ops'
  end.

Definition run (n : nat) (ops : list op) : hist := fold_left hstep ops (init n).

Record Inv (n : nat) (h : hist) : Prop := {
  i_nocrash : crashed h = false;
  i_limit : limit (t_ h) = n;
  i_bound : running (t_ h) <= n;
  i_full : queue (t_ h) = [] \/ running (t_ h) = n;
  i_fifo : started h ++ queue (t_ h) = added h;
  i_count : running (t_ h) + ndone h = length (started h)
}.

Lemma init_inv n : Inv n (init n).
Proof. constructor; cbn; auto with arith. Qed.

Lemma step_inv n h o : Inv n h ->
  (match o with Done => ndone h < length (started h) | Add _ => True end) -> Inv n (hstep h o).
Proof.
  intros [Hc Hl Hb Hf Hq Hk] Hwf. unfold hstep. rewrite Hc. destruct o as [id|]; cbn [step]; rewrite Hl.
  - destruct (Nat.leb_spec n (running (t_ h))) as [Hle|Hgt].
    + constructor; cbn; rewrite ?app_nil_r; auto.
      * right. lia.
      * rewrite app_assoc, Hq. reflexivity.
    + (* a free slot: nothing was waiting *)
      destruct Hf as [Hf|Hf]; [|lia]. rewrite Hf, app_nil_r in Hq.
      constructor; cbn; rewrite ?Hf, ?app_nil_r, ?app_length; cbn; auto; try lia.
      rewrite Hq. reflexivity.
  - (* no panic: the caller's starter is counted in [running] *)
    destruct (Nat.eqb_spec (running (t_ h)) 0) as [H0|Hpos]; [lia|].
    destruct (queue (t_ h)) as [|id q].
    + rewrite app_nil_r in Hq. constructor; cbn; rewrite ?app_nil_r; auto; lia.
    + (* the slot goes to the head of the queue *)
      destruct Hf as [Hf|Hf]; [discriminate|].
      constructor; cbn; rewrite ?app_length; cbn; auto; try lia.
      rewrite <- Hq, <- app_assoc. reflexivity.
Qed.

Theorem run_inv : forall n ops, wf (init n) ops -> Inv n (run n ops).
Proof.
  intros n ops. unfold run. generalize (init_inv n). generalize (init n).
  induction ops as [|o ops IH]; intros h Hi Hwf; cbn; [exact Hi|].
  destruct Hwf as [Ho Hwf]. apply IH; [apply step_inv; assumption|exact Hwf].
Qed.

(* C19, bound: never more than N started-but-unanswered; never a panic; starters run in Add order *)
Theorem throttle_bound : forall n ops, wf (init n) ops ->
  let h := run n ops in
  crashed h = false /\ length (started h) - ndone h <= n /\ exists rest, added h = started h ++ rest.
Proof.
  intros n ops Hwf h. destruct (run_inv n ops Hwf) as [Hc _ Hb _ Hq Hk]. fold h in Hc, Hb, Hq, Hk.
  split; [exact Hc|]. split; [lia|]. exists (queue (t_ h)). symmetry. exact Hq.
Qed.

(* C19, progress: whenever every started request has been answered, nothing is left waiting *)
Theorem throttle_progress : forall n ops, 1 <= n -> wf (init n) ops ->
  let h := run n ops in
  ndone h = length (started h) -> started h = added h.
Proof.
  intros n ops Hn Hwf h Hall. destruct (run_inv n ops Hwf) as [_ _ _ Hf Hq Hk]. fold h in Hf, Hq, Hk.
  destruct Hf as [Hf|Hf]; [|lia]. rewrite Hf, app_nil_r in Hq. exact Hq.
Qed.
(* C19, exact: at every moment the number of requests sent is min(added, answered + N): nothing waits while a slot
   is free, nothing is sent beyond the limit *)
Theorem throttle_exact : forall n ops, wf (init n) ops ->
  let h := run n ops in
  length (started h) = Nat.min (length (added h)) (ndone h + n).
Proof.
  intros n ops Hwf h. destruct (run_inv n ops Hwf) as [_ _ Hb Hf Hq Hk]. fold h in Hb, Hf, Hq, Hk.
  rewrite <- Hq, app_length. destruct Hf as [Hf|Hf]; [rewrite Hf; cbn|]; lia.
Qed.
Print Assumptions throttle_bound.
Print Assumptions throttle_exact.
Print Assumptions throttle_progress.

Example ex : let h := run 2 [Add 1; Add 2; Add 3; Add 4; Done; Done; Done; Done] in
  (started h, queue (t_ h), running (t_ h), crashed h) = ([1;2;3;4], [], 0, false).
Proof. reflexivity. Qed.
Example ex_panic : crashed (run 1 [Add 1; Done; Done]) = true.   (* the contract is needed *)
Proof. reflexivity. Qed.
