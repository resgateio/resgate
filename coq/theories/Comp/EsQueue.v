(* C13: model of EventSubscription.queue / locks / processQueue
   (server/rescache/eventSubscription.go:133-208) with the worker wake-up channel abstracted as a counter. *)
From Coq Require Import List Arith Lia Bool.
Import ListNotations.

Inductive task := Plain (n : nat) | QEvent (l : nat).      (* QEvent l: handleQueryEvent with l cached queries -> lockEvents(l) *)
Inductive ranitem := RanQ (t : task) | RanL (id : nat).

Record es := {
  queue : list task;
  locks : option (list nat * nat);   (* pending unlock callbacks, remaining capacity (= cap(e.locks)) *)
  wake : nat;                         (* entries for this resource in Cache.inCh *)
  ran : list ranitem;                 (* log of executed closures *)
  owed : nat;                         (* ghost: unlock calls the environment still owes (one per query request) *)
  enq : list task                     (* ghost: everything ever enqueued, in order *)
}.

Definition init : es := {| queue := []; locks := None; wake := 0; ran := []; owed := 0; enq := [] |}.

(* the second loop of processQueue: run items until one of them locks *)
Fixpoint run_queue (q : list task) (log : list ranitem) : list task * option (list nat * nat) * list ranitem * nat :=
  match q with
  | [] => ([], None, log, 0)
  | Plain n :: q' => run_queue q' (log ++ [RanQ (Plain n)])
  | QEvent l :: q' =>
      if l =? 0 then run_queue q' (log ++ [RanQ (QEvent l)])          (* no cached queries: returns at once *)
      else (q', Some ([], l), log ++ [RanQ (QEvent l)], l)            (* lockEvents(l); copy rest of queue; return *)
  end.

Definition work (e : es) : es :=
  match wake e with
  | 0 => e
  | S w =>
    match locks e with
    | Some (pend, cap) =>
        let log1 := ran e ++ map RanL pend in
        let cap' := cap - length pend in                               (* e.locks = e.locks[idx:] *)
        if 0 <? cap' then
          {| queue := queue e; locks := Some ([], cap'); wake := w; ran := log1; owed := owed e; enq := enq e |}
        else
          let '(q', lk, log2, o) := run_queue (queue e) log1 in
          {| queue := q'; locks := lk; wake := w; ran := log2; owed := o; enq := enq e |}
    | None =>
        let '(q', lk, log2, o) := run_queue (queue e) (ran e) in
        {| queue := q'; locks := lk; wake := w; ran := log2; owed := o; enq := enq e |}
    end
  end.

Inductive op := Enq (t : task) | Unl (id : nat) | Work.

Definition step (e : es) (o : op) : es :=
  match o with
  | Enq t =>
      let signal := match locks e, queue e with None, [] => 1 | _, _ => 0 end in
      {| queue := queue e ++ [t]; locks := locks e; wake := wake e + signal; ran := ran e; owed := owed e; enq := enq e ++ [t] |}
  | Unl id =>
      match locks e with
      | Some (pend, cap) =>
          let signal := match pend with [] => 1 | _ => 0 end in
          {| queue := queue e; locks := Some (pend ++ [id], cap); wake := wake e + signal; ran := ran e;
             owed := owed e - 1; enq := enq e |}
      | None => e                                                      (* excluded by the contract below *)
      end
  | Work => work e
  end.

(* contract: an unlock arrives only while one is owed (exactly one per query request, C18) *)
Definition allowed (e : es) (o : op) : Prop := match o with Unl _ => 0 < owed e | _ => True end.

Definition runnable (e : es) : Prop :=
  match locks e with
  | None => queue e <> []
  | Some (pend, _) => pend <> []
  end.

Definition qtasks (l : list ranitem) : list task := flat_map (fun r => match r with RanQ t => [t] | _ => [] end) l.

Record Inv (e : es) : Prop := {
  i_cap : match locks e with Some (pend, cap) => cap = owed e + length pend /\ 0 < cap | None => owed e = 0 end;
  i_wake : runnable e -> 0 < wake e;
  i_fifo : qtasks (ran e) ++ queue e = enq e
}.

Lemma qtasks_app a b : qtasks (a ++ b) = qtasks a ++ qtasks b.
Proof. unfold qtasks. apply flat_map_app. Qed.
Lemma qtasks_locks l : qtasks (map RanL l) = [].
Proof. induction l; cbn; auto. Qed.
Lemma qtasks_ran log t q : qtasks (log ++ [RanQ t]) ++ q = qtasks log ++ t :: q.
Proof. rewrite qtasks_app, <- app_assoc. reflexivity. Qed.

Lemma run_queue_spec : forall q log q' lk log' o,
  run_queue q log = (q', lk, log', o) ->
  qtasks log' ++ q' = qtasks log ++ q /\
  (lk = None /\ q' = [] /\ o = 0 \/ lk = Some ([], o) /\ 0 < o).
Proof.
  induction q as [|t q IH]; intros log q' lk log' o H; cbn [run_queue] in H.
  - injection H as <- <- <- <-. auto.
  - destruct t as [n|l]; [|destruct (Nat.eqb_spec l 0) as [->|Hl]].
    1, 2: (* the loop goes on *) apply IH in H as [H1 H2]; rewrite H1, qtasks_ran; auto.
    injection H as <- <- <- <-. rewrite qtasks_ran. split; [reflexivity|right; split; [reflexivity|lia]].
Qed.

Lemma init_inv : Inv init.
Proof. constructor; cbn; auto. intros H; congruence. Qed.

(* What a worker leaves when it gets as far as running the queue. *)
Lemma run_queue_inv q log w en : qtasks log ++ q = en ->
  Inv (let '(q', lk, log', o) := run_queue q log in
       {| queue := q'; locks := lk; wake := w; ran := log'; owed := o; enq := en |}).
Proof.
  intros Hf. destruct (run_queue q log) as [[[q' lk] log'] o] eqn:Er.
  apply run_queue_spec in Er as (H1 & Hlk). rewrite Hf in H1.
  destruct Hlk as [(-> & -> & ->)|(-> & Ho)]; constructor; unfold runnable; cbn -[qtasks]; try congruence.
  lia.
Qed.

Lemma step_inv e o : Inv e -> allowed e o -> Inv (step e o).
Proof.
  intros H Ha. pose proof H as [Hc Hw Hf]. destruct o as [t|id|]; cbn [step].
  - constructor; cbn -[qtasks].
    + exact Hc.
    + unfold runnable in *. cbn. destruct (locks e) as [[pend cap]|].
      * intros Hp. specialize (Hw Hp). lia.
      * intros _. destruct (queue e); [lia|]. assert (0 < wake e) by (apply Hw; discriminate). lia.
    + rewrite app_assoc, Hf. reflexivity.
  - cbn in Ha. unfold runnable in Hw. destruct (locks e) as [[pend cap]|]; [|lia].
    constructor; cbn -[qtasks].
    + rewrite app_length. cbn. lia.
    + intros _. destruct pend; [lia|]. assert (0 < wake e) by (apply Hw; discriminate). lia.
    + exact Hf.
  - unfold work. destruct (wake e) as [|w]; [exact H|].
    destruct (locks e) as [[pend cap]|]; [|apply run_queue_inv, Hf].
    destruct (Nat.ltb_spec 0 (cap - length pend)) as [Hlt|Hge].
    + constructor; cbn -[qtasks].
      * lia.
      * unfold runnable. cbn. congruence.
      * rewrite qtasks_app, qtasks_locks, app_nil_r. exact Hf.
    + apply run_queue_inv. rewrite qtasks_app, qtasks_locks, app_nil_r. exact Hf.
Qed.

Fixpoint wf (e : es) (ops : list op) : Prop :=
  match ops with [] => True | o :: ops' => allowed e o /\ wf (step e o) ops' end.
Definition run (ops : list op) : es := fold_left step ops init.

Theorem run_inv : forall ops, wf init ops -> Inv (run ops).
Proof.
  intros ops. unfold run. generalize init init_inv.
  induction ops as [|o ops IH]; intros e Hi Hwf; cbn; [exact Hi|].
  destruct Hwf as [Ha Hwf]. apply IH; [apply step_inv; assumption|exact Hwf].
Qed.

(* C13 (a): while query requests are unanswered, a worker run executes no queued event or response *)
Theorem lock_blocks_queue : forall e, Inv e -> forall pend cap,
  locks e = Some (pend, cap) -> 0 < owed e -> qtasks (ran (work e)) = qtasks (ran e) /\ queue (work e) = queue e.
Proof.
  intros e [Hc _ _] pend cap El Ho. unfold work. destruct (wake e); [auto|]. rewrite El in *.
  destruct Hc as [Hc1 _].
  destruct (Nat.ltb_spec 0 (cap - length pend)) as [Hlt|Hge]; [|lia].
  cbn. rewrite qtasks_app, qtasks_locks, app_nil_r. auto.
Qed.

(* C13 (b): processing always resumes — once every wake-up has been served and nothing is owed,
   the lock is gone and the queue is empty; everything enqueued has run, in order *)
Theorem always_resumes : forall ops, wf init ops ->
  let e := run ops in wake e = 0 -> owed e = 0 -> locks e = None /\ queue e = [] /\ qtasks (ran e) = enq e.
Proof.
  intros ops Hwf e Hw Ho. destruct (run_inv ops Hwf) as [Hc Hr Hf]. fold e in Hc, Hr, Hf.
  assert (Hnr : ~ runnable e) by (intros H; specialize (Hr H); lia).
  unfold runnable in Hnr. destruct (locks e) as [[pend cap]|] eqn:El.
  - destruct Hc as [Hc1 Hc2]. destruct pend; [cbn in *; lia|exfalso; apply Hnr; discriminate].
  - assert (Hq : queue e = []) by (destruct (queue e); [reflexivity|exfalso; apply Hnr; discriminate]).
    rewrite Hq, app_nil_r in Hf. auto.
Qed.
Print Assumptions lock_blocks_queue.
Print Assumptions always_resumes.

(* a query event with 2 cached queries: events behind it wait for both answers, then run in order *)
Example ex :
  let e := run [Enq (Plain 1); Enq (QEvent 2); Enq (Plain 3); Work; Enq (Plain 4); Unl 10; Work; Unl 11; Work] in
  (ran e, queue e, locks e, wake e) =
  ([RanQ (Plain 1); RanQ (QEvent 2); RanL 10; RanL 11; RanQ (Plain 3); RanQ (Plain 4)], [], None, 0).
Proof. reflexivity. Qed.
