(* C08: the direct-subscription counter of one (connection, resource id): model of wsConn.addCount
   (wsConn.go:618-631), UnsubscribeByRID (604-616), removeCount's direct branch (638-655),
   unsubscribeDirect (subscription.go:789-794) and the count parameter handling of
   rpc.HandleRequest (rpc.go:197-214). *)
From Coq Require Import List Arith ZArith Lia Bool.
Import ListNotations.

Section WithLimit.
Variable limit : nat.     (* SubscriptionCountLimit = 256 *)

Inductive op :=
| Subscribe                 (* a request that takes a direct subscription (subscribe, get, resource response) *)
| Release                   (* that request failed, or was a get: its subscription is given back *)
| Unsubscribe (count : option Z)   (* unsubscribe request with the optional count parameter *)
| UnsubEvent.               (* revocation / delete: all direct subscriptions removed, one unsubscribe event *)

Inductive out := OOk | OLimit | ONoSubscription | OInvalidParams | OEvent | ONothing.

Definition step (d : nat) (o : op) : nat * out :=
  match o with
  | Subscribe => if limit <=? d then (d, OLimit) else (S d, OOk)
  | Release => (d - 1, ONothing)
  | Unsubscribe c =>
      let n := match c with None => 1%Z | Some n => n end in
      if (n <=? 0)%Z then (d, OInvalidParams)
      else if (Z.of_nat d <? n)%Z then (d, ONoSubscription)
      else (d - Z.to_nat n, OOk)
  | UnsubEvent => match d with O => (d, ONothing) | _ => (0, OEvent) end
  end.

(* the ledger a client can keep from what it observes *)
Definition ledger (l : nat) (o : op) (r : out) : nat :=
  match o, r with
  | Subscribe, OOk => S l
  | Release, _ => l - 1
  | Unsubscribe (Some n), OOk => l - Z.to_nat n
  | Unsubscribe None, OOk => l - 1
  | UnsubEvent, OEvent => 0
  | _, _ => l
  end.

Fixpoint run (d l : nat) (ops : list op) : nat * nat * list out :=
  match ops with
  | [] => (d, l, [])
  | o :: ops' => let '(d', r) := step d o in
                 let '(d'', l'', rs) := run d' (ledger l o r) ops' in (d'', l'', r :: rs)
  end.

Lemma ledger_step d o : ledger d o (snd (step d o)) = fst (step d o).
Proof.
  destruct o as [| |[n|]|]; cbn.
  - destruct (limit <=? d); reflexivity.
  - reflexivity.
  - destruct (n <=? 0)%Z; [|destruct (Z.of_nat d <? n)%Z]; reflexivity.
  - destruct (Z.of_nat d <? 1)%Z; reflexivity.
  - destruct d; reflexivity.
Qed.

Lemma step_le d o : d <= limit -> fst (step d o) <= limit.
Proof.
  intros Hd. destruct o as [| |c|]; cbn.
  - destruct (Nat.leb_spec limit d); cbn; lia.
  - lia.
  - destruct (_ <=? 0)%Z; [|destruct (_ <? _)%Z]; cbn; lia.
  - destruct d; cbn; lia.
Qed.

Lemma run_keeps (P : nat -> Prop) : (forall d o, P d -> P (fst (step d o))) ->
  forall ops d, P d -> let '(d', l', _) := run d d ops in d' = l' /\ P d'.
Proof.
  intros HP. induction ops as [|o ops IH]; intros d Hd; cbn [run]; [auto|].
  pose proof (ledger_step d o) as HL. specialize (HP d o Hd).
  destruct (step d o) as [d1 r]. cbn [fst snd] in HL, HP.
  rewrite HL. specialize (IH d1 HP). destruct (run d1 d1 ops) as [[d2 l2] rs]. exact IH.
Qed.

Theorem ledger_exact : forall ops d, let '(d', l', _) := run d d ops in d' = l'.
Proof.
  intros ops d. pose proof (run_keeps (fun _ => True) (fun _ _ _ => I) ops d I) as H.
  destruct (run d d ops) as [[d' l'] rs]. apply H.
Qed.

(* an unsubscribe request succeeds exactly when its count (default 1, must be positive) does not exceed the number
   of direct subscriptions, otherwise noSubscription (invalidParams for a bad count) and the number is unchanged *)
Theorem unsubscribe_outcome : forall d c,
  let n := match c with None => 1%Z | Some n => n end in
  let '(d', r) := step d (Unsubscribe c) in
  ((n <= 0)%Z -> r = OInvalidParams /\ d' = d) /\
  ((0 < n)%Z -> (Z.of_nat d < n)%Z -> r = ONoSubscription /\ d' = d) /\
  ((0 < n)%Z -> (n <= Z.of_nat d)%Z -> r = OOk /\ Z.of_nat d' = (Z.of_nat d - n)%Z).
Proof.
  intros d c n. unfold step. fold n.
  destruct (Z.leb_spec n 0); [repeat split; intros; try lia; reflexivity|].
  destruct (Z.ltb_spec (Z.of_nat d) n); repeat split; intros; try lia; reflexivity.
Qed.

Theorem never_exceeds_limit : forall ops d, d <= limit -> let '(d', _, _) := run d d ops in d' <= limit.
Proof.
  intros ops d Hd. pose proof (run_keeps _ step_le ops d Hd) as H.
  destruct (run d d ops) as [[d' l'] rs]. apply H.
Qed.

End WithLimit.

Example ex_run : run 256 0 0 [Subscribe; Subscribe; Unsubscribe (Some 3%Z); Unsubscribe None; UnsubEvent; Unsubscribe (Some 0%Z)]
  = (0, 0, [OOk; OOk; ONoSubscription; OOk; OEvent; OInvalidParams]).
Proof. reflexivity. Qed.

(* C06: a revocation (denied re-access, delete) removes all direct subscriptions with exactly one unsubscribe
   event, and none when there is no direct subscription *)
Theorem revocation_removes_all : forall limit d,
  step limit d UnsubEvent = match d with O => (O, ONothing) | _ => (O, OEvent) end.
Proof. intros limit [|d]; reflexivity. Qed.
