(* C06 — revocation. Property theorems only. *)
From Coq Require Import List Arith.
From RG Require Import Comp.DirectCount Pure.Access.
Import ListNotations.

(* A non-grant verdict on a re-check removes every direct subscription of the resource with exactly one unsubscribe
   event (and does nothing when there is none). *)
Theorem C06_revocation_removes_all : forall limit d,
  step limit d UnsubEvent = match d with O => (O, ONothing) | _ => (O, OEvent) end.
Proof. exact revocation_removes_all. Qed.
Print Assumptions C06_revocation_removes_all.

(* ... and what counts as a non-grant: everything except a result with get = true. *)
Theorem C06_nongrant_is_everything_else : forall a, can_get a = Granted <-> exists call, a = AResult true call.
Proof. exact can_get_granted_iff. Qed.
Print Assumptions C06_nongrant_is_everything_else.

From RG Require Import Comp.SubFsm Proofs.SubFsmProofs.

(* On the subscription machine (tied to the code by the `subfsm` direct drive), in every state: *)

(* while a re-access check is pending, nothing but its answer delivers an event to the client; *)
Theorem C06_pending_recheck_blocks_events : forall s o,
  qR s = true -> (forall a, o <> OpAnswer a) -> has_event (snd (step s o)) = false.
Proof. exact pending_recheck_blocks_events. Qed.
Print Assumptions C06_pending_recheck_blocks_events.

(* a trigger that finds the subscription busy (loading, or re-checking already) is remembered; *)
Theorem C06_trigger_while_busy_is_deferred : forall s,
  st s <> Disposed -> queueing s = true -> fReacc (fst (step s OpReaccess)) = true /\ snd (step s OpReaccess) = [].
Proof. exact trigger_while_busy_is_deferred. Qed.
Print Assumptions C06_trigger_while_busy_is_deferred.

(* a non-grant verdict revokes every direct subscription with one unsubscribe event carrying the reason, unregisters the
   subscription and delivers none of the held events. *)
Theorem C06_nongrant_revokes_all : forall s a,
  st s <> Disposed -> 0 < outst s -> acbs s = [KValidate] -> 0 < direct s -> can_get a <> VOk ->
  let '(s', o) := step s (OpAnswer a) in
  In (OUnsubEvent (can_get a)) o /\ has_event o = false /\ direct s' = 0 /\ reg s' = false /\ st s' = Disposed.
Proof. exact nongrant_revokes_all. Qed.
Print Assumptions C06_nongrant_revokes_all.

(* Integrated model Comp/Core.v (connections x one flat resource, both task queues, token events, reaccess events; run in
   lock-step with the real gateway on every check), every sequence of stimuli and scheduler grants. *)
From RG Require Comp.Conv Comp.Core Proofs.CoreProofsABC.

(* A token event handled on a connection that already has a token and holds a subscription: the new token is in force, the
   re-validation has started (the cached verdict is dropped, an access request is out) or the trigger is remembered because
   the subscription is still queueing - and in both cases the subscription holds back every event from then on. *)
Theorem C06_core_token_triggers_revalidation :
  forall (val upd : Type) (app : upd -> val -> val) (norm : upd -> val -> option upd) (d : val),
  (forall u v, norm u v = None -> app u v = v) ->
  (forall u v u', norm u v = Some u' -> app u' v = app u v) ->
  forall t ops c tk q i,
  let s := fst (Core.exec val upd app norm d t ops) in
  Core.cqueue (Core.conns val upd s c) = Core.QToken tk :: q -> Core.tokset (Core.conns val upd s c) = true ->
  Core.cur (Core.conns val upd s c) = Some i -> 0 < Core.direct (Core.conns val upd s c) ->
  let s' := fst (Core.step val upd app norm s (Core.GrantConn upd c)) in
  Core.tok (Core.conns val upd s' c) = tk /\
  (Core.rq (Core.insts val upd s' i) = true \/ Core.reflag (Core.insts val upd s' i) = true) /\
  Conv.flag val upd (Conv.subs val upd (Core.cv val upd s') i) = true.
Proof. exact CoreProofsABC.core_token_triggers_revalidation. Qed.
Print Assumptions C06_core_token_triggers_revalidation.

(* While a re-validation is pending the subscription queues every event (nothing is delivered before the verdict), the
   validation is registered, no verdict is cached and an access request is out. *)
Theorem C06_core_revalidation_holds_events :
  forall (val upd : Type) (app : upd -> val -> val) (norm : upd -> val -> option upd) (d : val),
  (forall u v, norm u v = None -> app u v = v) ->
  (forall u v u', norm u v = Some u' -> app u' v = app u v) ->
  forall t ops i,
  let s := fst (Core.exec val upd app norm d t ops) in
  Core.rq (Core.insts val upd s i) = true -> Conv.gone val upd (Conv.subs val upd (Core.cv val upd s) i) = false ->
  Conv.flag val upd (Conv.subs val upd (Core.cv val upd s) i) = true /\ In Core.AVal (Core.acb (Core.insts val upd s i)) /\
  Core.acc (Core.insts val upd s i) = None /\ Core.inflight (Core.insts val upd s i) = true.
Proof. exact CoreProofsABC.core_revalidation_holds_events. Qed.
Print Assumptions C06_core_revalidation_holds_events.

(* Once nothing is left to do, no re-validation is pending or remembered and every subscription held is backed by a grant. *)
Theorem C06_core_quiescent_validated :
  forall (val upd : Type) (app : upd -> val -> val) (norm : upd -> val -> option upd) (d : val),
  (forall u v, norm u v = None -> app u v = v) ->
  (forall u v u', norm u v = Some u' -> app u' v = app u v) ->
  forall t ops c i,
  let s := fst (Core.exec val upd app norm d t ops) in
  Core.quiescent val upd s -> Core.cur (Core.conns val upd s c) = Some i ->
  Core.rq (Core.insts val upd s i) = false /\ Core.reflag (Core.insts val upd s i) = false /\ Core.acb (Core.insts val upd s i) = [] /\
  (0 < Core.direct (Core.conns val upd s c) -> Core.acc (Core.insts val upd s i) = Some true).
Proof. exact CoreProofsABC.core_quiescent_validated. Qed.
Print Assumptions C06_core_quiescent_validated.

(* A re-validation answered with anything but a grant: the connection is left without the subscription (count 0, the
   Subscription object disposed), exactly one unsubscribe event is sent if it held direct subscriptions, and none of the
   events held back during the re-validation is delivered. *)
Theorem C06_core_denied_revalidation_revokes :
  forall (val upd : Type) (app : upd -> val -> val) (norm : upd -> val -> option upd) (d : val),
  (forall u v, norm u v = None -> app u v = v) ->
  (forall u v u', norm u v = Some u' -> app u' v = app u v) ->
  forall t ops c i q,
  let s := fst (Core.exec val upd app norm d t ops) in
  Core.cqueue (Core.conns val upd s c) = Core.QAccess i :: q ->
  Conv.gone val upd (Conv.subs val upd (Core.cv val upd s) i) = false -> Core.ans (Core.insts val upd s i) = Some false ->
  In Core.AVal (Core.acb (Core.insts val upd s i)) ->
  let '(s', o) := Core.step val upd app norm s (Core.GrantConn upd c) in
  Core.cur (Core.conns val upd s' c) = None /\ Core.direct (Core.conns val upd s' c) = 0 /\
  Conv.gone val upd (Conv.subs val upd (Core.cv val upd s') i) = true /\
  (0 < Core.direct (Core.conns val upd s c) ->
   Core.count_out val upd (fun o => match o with Core.OUnsubEv _ _ c' => Nat.eqb c' c | _ => false end) o = 1) /\
  (forall o', In o' o -> match o' with Core.OEvent _ _ _ _ | Core.OCustom _ _ _ => False | _ => True end).
Proof. exact CoreProofsABC.core_denied_revalidation_revokes. Qed.
Print Assumptions C06_core_denied_revalidation_revokes.
