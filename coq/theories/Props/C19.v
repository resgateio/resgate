(* C19 — throttles. Property theorems only. *)
From Coq Require Import List Arith.
From RG Require Import Comp.Throttle.
Import ListNotations.

(* With limit N >= 1, under the call contract (Done only for a started, not yet answered starter), for every
   sequence of Add/Done: no panic, at most N starters are started-but-unanswered, and starters run in Add order. *)
Theorem C19_throttle_bound : forall n ops, 1 <= n -> wf (init n) ops ->
  let h := run n ops in
  crashed h = false /\ length (started h) - ndone h <= n /\ exists rest, added h = started h ++ rest.
Proof. intros n ops _. apply throttle_bound. Qed.
Print Assumptions C19_throttle_bound.

(* Every answer releases the next waiting one: once every started request has been answered nothing is left
   waiting, whatever the order of answers. *)
Theorem C19_throttle_progress : forall n ops, 1 <= n -> wf (init n) ops ->
  let h := run n ops in
  ndone h = length (started h) -> started h = added h.
Proof. exact throttle_progress. Qed.
Print Assumptions C19_throttle_progress.

(* Exactness: at every moment the number of requests sent is min(added, answered + N) - nothing waits while a
   slot is free and nothing is sent beyond the limit. *)
Theorem C19_throttle_exact : forall n ops, 1 <= n -> wf (init n) ops ->
  let h := run n ops in
  length (started h) = Nat.min (length (added h)) (ndone h + n).
Proof. intros n ops _. apply throttle_exact. Qed.
Print Assumptions C19_throttle_exact.
