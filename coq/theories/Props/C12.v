(* C12 — system reset: wildcard matching and the derived diff. Property theorems only. *)
From Coq Require Import List Ascii ZArith.
From RG Require Import Base.Value Pure.Pattern Pure.Lcs Pure.LcsTab.
Import ListNotations.

(* For every valid pattern and every name with non-empty dot-free tokens, the matcher's wildcard loop is
   token-wise NATS matching: `*` exactly one token, `>` one or more trailing tokens. *)
Theorem C12_wildcard_loop_is_token_matching : forall pt st,
  valid_pat pt -> Forall name_tok st -> pt <> [] -> st <> [] ->
  pmatch (join pt) (join st) = spec pt st.
Proof. exact pmatch_spec. Qed.
Print Assumptions C12_wildcard_loop_is_token_matching.

(* For any old and new collection (repeated values included) the remove/add events derived by the diff routine,
   applied in order to the old collection, succeed with every index in range and yield the new collection
   (up to Value.Equal). *)
Theorem C12_collection_diff_patches : forall a b : list value,
  exists b', apply_evs (lcs_model veq a b) a = Some b' /\ Forall2 (vrel veq) b' b.
Proof. exact (lcs_model_patch veq). Qed.
Print Assumptions C12_collection_diff_patches.

(* Unchanged content yields no event. *)
Theorem C12_unchanged_collection_no_event : forall a b : list value,
  Forall2 (fun x y => veq x y = true) a b -> lcs_model veq a b = [].
Proof. exact (lcs_model_same_nil veq). Qed.
Print Assumptions C12_unchanged_collection_no_event.

From RG Require Import Pure.PatternParse Proofs.PatternParseProofs.

(* The pattern parser accepts exactly the well-formed patterns (tokens of bytes 33..126 without '?', `*` alone in
   its token, `>` alone and last) and computes its wildcard flag correctly. *)
Theorem C12_parse_accepts_wellformed : forall pt, wf_pat pt -> parse (join pt) = Some (has_wild pt).
Proof. exact parse_join. Qed.
Print Assumptions C12_parse_accepts_wellformed.

Theorem C12_parse_accepts_only_wellformed : forall p w,
  parse p = Some w -> exists pt, wf_pat pt /\ p = join pt /\ w = has_wild pt.
Proof. exact parse_sound. Qed.
Print Assumptions C12_parse_accepts_only_wellformed.

(* The complete Match (string comparison without wildcards, the loop with wildcards) is NATS token matching for
   every valid pattern and every name of non-empty dot-free tokens. *)
Theorem C12_match_is_token_matching : forall pt st,
  wf_pat pt -> st <> [] -> Forall name_tok st ->
  match_model (join pt) (join st) = spec pt st.
Proof. exact match_model_correct. Qed.
Print Assumptions C12_match_is_token_matching.

(* Invalid patterns match nothing. *)
Theorem C12_invalid_pattern_matches_nothing : forall p s, parse p = None -> match_model p s = false.
Proof. exact invalid_matches_nothing. Qed.
Print Assumptions C12_invalid_pattern_matches_nothing.

From RG Require Import Pure.ModelDiff Proofs.ModelDiffProofs.

(* Models: for any cached model and any re-fetched model (neither containing delete actions as stored values —
   the decoder rejects those), processing the derived change event makes the cache equal to the re-fetched model. *)
Theorem C12_model_reset_converges : forall old new, uniq old -> uniq new ->
  (forall k v, lookup k new = Some v -> v <> VDelete) ->
  (forall k v, lookup k old = Some v -> v <> VDelete) ->
  let '(eff, m') := apply_change (reset_props old new) old in
  forall k, lookup k m' = lookup k new.
Proof. intros old new _. apply reset_converges_partial. Qed.
Print Assumptions C12_model_reset_converges.

(* ... and the change event a client is sent (with delete actions), applied to the client's copy, gives exactly what
   the cache stores. *)
Theorem C12_model_change_event_client_agrees : forall props m,
  let '(eff, m') := apply_change props m in
  forall k, lookup k (client_apply eff m) = lookup k m'.
Proof. exact apply_change_client_lookup_only. Qed.
Print Assumptions C12_model_change_event_client_agrees.

(* Unchanged content yields no event, and only unchanged content does. *)
Theorem C12_model_reset_noop_iff : forall old new, uniq old -> uniq new ->
  (forall k v, lookup k new = Some v -> v <> VDelete) ->
  (forall k v, lookup k old = Some v -> v <> VDelete) ->
  (reset_props old new = [] <-> forall k, lookup k old = lookup k new).
Proof. intros old new _. apply reset_noop_iff_partial. Qed.
Print Assumptions C12_model_reset_noop_iff.
