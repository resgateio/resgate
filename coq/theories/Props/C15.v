(* C15 — crash freedom and containment of malformed input. Property theorems only. *)
From Coq Require Import List ZArith String.
From RG Require Import Pure.Rid Pure.ValueDec Proofs.ValueDecProofs Pure.RespDec Proofs.RespDecProofs.
From RG Require Import Base.Value Comp.ResSub Proofs.ResSubProofs Comp.Throttle Pure.Lcs Pure.LcsTab.
Import ListNotations.

(* A malformed or inapplicable service event (undecodable payload, change on a collection, add/remove on a model,
   improper value, index out of range or negative) is discarded as a whole: cached content, version, subscribers and
   use count are unchanged and nothing is handed to any subscriber. *)
Theorem C15_inapplicable_discarded : forall r e,
  inapplicable r e = true ->
  let '(r', out) := handle_event r e in
  cont r' = cont r /\ version r' = version r /\ out = [] /\ nsubs r' = nsubs r /\ count r' = count r /\ resetting r' = resetting r.
Proof. exact inapplicable_discarded. Qed.
Print Assumptions C15_inapplicable_discarded.

(* The collection diff never produces an out-of-range index: applying its events in order always succeeds. *)
Theorem C15_diff_indices_in_range : forall a b : list value,
  exists b', apply_evs (lcs_model veq a b) a = Some b' /\ Forall2 (vrel veq) b' b.
Proof. exact (lcs_model_patch veq). Qed.
Print Assumptions C15_diff_indices_in_range.

(* The throttle never panics under its call contract. *)
Theorem C15_throttle_no_panic : forall (n : nat) ops, (1 <= n)%nat -> wf (init n) ops -> crashed (run n ops) = false.
Proof. intros n ops _ Hwf. exact (proj1 (throttle_bound n ops Hwf)). Qed.
Print Assumptions C15_throttle_no_panic.

(* Value objects supplied by services (codec.Value.UnmarshalJSON, model Pure/ValueDec.v, tied by the `valuedec`
   correspondence suite). A value is taken for a resource reference only if the object carried a non-empty valid rid,
   neither action nor data, and no member of a wrong JSON type; it is soft exactly when the soft flag is set. *)
Theorem C15_value_reference_sound : forall f r,
  classify f = ORef r \/ classify f = OSoft r ->
  f_err f = false /\ f_rid f = Some r /\ r <> [] /\ is_valid_rid r true = true /\
  f_action f = None /\ f_data f = None /\ (classify f = OSoft r <-> f_soft f = true).
Proof. exact reference_sound. Qed.
Print Assumptions C15_value_reference_sound.

Theorem C15_value_delete_sound : forall f,
  classify f = ValueDec.ODelete ->
  f_err f = false /\ f_rid f = None /\ f_action f = Some (s2l "delete"%string) /\ f_data f = None.
Proof. exact delete_sound. Qed.
Print Assumptions C15_value_delete_sound.

Theorem C15_value_data_sound : forall f id,
  classify f = ValueDec.OData id \/ classify f = OPrimData id ->
  f_err f = false /\ f_rid f = None /\ f_action f = None /\
  exists v, f_data f = Some (v, id) /\ (classify f = ValueDec.OData id <-> (v = JObj \/ v = JArr)).
Proof. exact data_sound. Qed.
Print Assumptions C15_value_data_sound.

(* Ambiguous, ill-typed and empty value objects are rejected: acceptance needs exactly one of rid / action / data. *)
Theorem C15_value_accepted_has_one_marker : forall f,
  is_err (classify f) = false -> f_err f = false /\ markers f = 1%nat.
Proof. exact accepted_has_one_marker. Qed.
Print Assumptions C15_value_accepted_has_one_marker.

(* A member of the wrong JSON type anywhere in the object rejects the value whatever follows it; members with other
   keys are ignored. *)
Theorem C15_value_type_error_rejects : forall ms1 ms2 k v id,
  f_err (store (read ms1) (k, v, id)) = true -> decode (TObj (ms1 ++ (k, v, id) :: ms2)) = OErr EJson.
Proof. intros ms1 ms2 k v id. apply type_error_rejects. Qed.
Print Assumptions C15_value_type_error_rejects.

Theorem C15_value_foreign_member_ignored : forall ms k v id,
  key_is k "rid"%string = false -> key_is k "soft"%string = false -> key_is k "action"%string = false -> key_is k "data"%string = false ->
  decode (TObj (ms ++ [(k, v, id)])) = decode (TObj ms).
Proof. intros ms k v id H1 H2 H3 H4. rewrite (foreign_member_ignored ms []), app_nil_r by assumption. reflexivity. Qed.
Print Assumptions C15_value_foreign_member_ignored.

(* Answers to get requests (codec.DecodeGetResponse, model Pure/RespDec.v, tied by the `respdec` suite): accepted as a
   model (collection) only when well-formed, without error, with a model and no collection (a collection and no model),
   and every value proper - no delete action, nothing the value decoder rejects. *)
Theorem C15_get_response_model_sound : forall p n,
  decode_get p = GModel n ->
  gp_syntax_ok p = true /\ gp_error p = None /\
  exists m, gp_result p = Some {| g_model := Some m; g_coll := None |} /\ List.length m = n /\
            forall v, In v m -> proper v = true.
Proof. exact get_model_sound. Qed.
Print Assumptions C15_get_response_model_sound.

Theorem C15_get_response_collection_sound : forall p n,
  decode_get p = GColl n ->
  gp_syntax_ok p = true /\ gp_error p = None /\
  exists c, gp_result p = Some {| g_model := None; g_coll := Some c |} /\ List.length c = n /\
            forall v, In v c -> proper v = true.
Proof. exact get_coll_sound. Qed.
Print Assumptions C15_get_response_collection_sound.

Theorem C15_get_response_model_complete : forall m,
  (forall v, In v m -> proper v = true) ->
  decode_get {| gp_syntax_ok := true; gp_error := None; gp_result := Some {| g_model := Some m; g_coll := None |} |} = GModel (List.length m).
Proof. exact get_model_complete. Qed.
Print Assumptions C15_get_response_model_complete.

(* Answers to call / auth / new requests (codec.DecodeCallResponse): a resource response only for a valid rid and no
   error; a result only without error and without resource. *)
Theorem C15_call_response_resource_sound : forall p r,
  decode_call p = CResource r ->
  cp_syntax_ok p = true /\ cp_error p = None /\ cp_resource p = Some r /\ is_valid_rid r true = true.
Proof. exact call_resource_sound. Qed.
Print Assumptions C15_call_response_resource_sound.

Theorem C15_call_response_result_sound : forall p id,
  decode_call p = CResult id ->
  cp_syntax_ok p = true /\ cp_error p = None /\ cp_resource p = None /\ cp_result p = Some id.
Proof. exact call_result_sound. Qed.
Print Assumptions C15_call_response_result_sound.

(* In a well-formed answer the service's error wins over everything else the answer carries. *)
Theorem C15_get_response_error_wins : forall p e,
  decode_get p = GService e <-> (gp_syntax_ok p = true /\ gp_error p = Some e /\
     match gp_result p with Some r => existsb rejected (values_of r) | None => false end = false).
Proof. exact get_error_wins. Qed.
Print Assumptions C15_get_response_error_wins.

Theorem C15_call_response_error_wins : forall p e,
  cp_syntax_ok p = true -> cp_error p = Some e -> decode_call p = CService e.
Proof. exact call_error_wins. Qed.
Print Assumptions C15_call_response_error_wins.
