(* C14 / C10: the requests a client request turns into (wsConn.SubscribeResource / GetResource / CallResource /
   AuthResource, Subscription.NewSubscription, parseRID, ExpandCID, rescache.Cache.Access/Call/Auth and
   codec.CreateRequest): subject = type.name(.method) with every {cid} tag replaced by the connection id and the
   name cut at the FIRST '?', the rest travelling as the payload's query. *)
From Coq Require Import List Ascii String Bool.
From RG Require Import Pure.Rid Pure.RidPart Pure.Access.
Import ListNotations.

Inductive ckind := CSubscribe | CGet | CCall | CAuth.

Definition str (s : string) : list ascii := list_ascii_of_string s.

(* (subject, query) pairs, in the order the gateway issues them when every access check is granted *)
Definition requests (k : ckind) (rid cid meth : list ascii) : list (list ascii * list ascii) :=
  if negb (is_valid_rid rid true) then [] else
  let e := expand rid cid in
  let nm := name_of e in
  let q := query_of e in
  match k with
  | CSubscribe | CGet => [(str "access." ++ nm, q); (str "get." ++ nm, q)]
  | CCall => [(str "access." ++ nm, q); (str "call." ++ nm ++ [dot] ++ meth, q)]
  | CAuth => [(str "auth." ++ nm ++ [dot] ++ meth, q)]
  end.

(* the name part never contains a '?': whatever follows the first one is query *)
Lemma name_of_no_qm : forall l, forallb (fun c => negb (is c qm)) (name_of l) = true.
Proof.
  induction l as [|c l IH]; cbn; [reflexivity|].
  destruct (is c qm) eqn:E; cbn; [reflexivity|]. rewrite E. cbn. exact IH.
Qed.

(* name and query partition the expanded id at its first '?' *)
Lemma name_query_split : forall l,
  l = name_of l \/ l = name_of l ++ [qm] ++ query_of l.
Proof.
  induction l as [|c l IH]; cbn; [left; reflexivity|].
  destruct (is c qm) eqn:E.
  - right. unfold is in E. apply Ascii.eqb_eq in E. subst c. reflexivity.
  - destruct IH as [IH|IH]; [left|right]; cbn; f_equal; exact IH.
Qed.

Lemma requests_query k rid cid meth s q :
  In (s, q) (requests k rid cid meth) -> q = query_of (expand rid cid).
Proof.
  unfold requests. destruct (negb (is_valid_rid rid true)); [intros []|].
  destruct k; cbn [In]; intros H;
    repeat (destruct H as [H|H]; [injection H as _ <-; reflexivity|]); destruct H.
Qed.

(* every request of one client request names the same resource and carries the same query *)
Theorem requests_same_name_and_query : forall k rid cid meth s1 q1 s2 q2,
  In (s1, q1) (requests k rid cid meth) -> In (s2, q2) (requests k rid cid meth) -> q1 = q2.
Proof.
  intros k rid cid meth s1 q1 s2 q2 H1 H2.
  rewrite (requests_query _ _ _ _ _ _ H1), (requests_query _ _ _ _ _ _ H2). reflexivity.
Qed.
