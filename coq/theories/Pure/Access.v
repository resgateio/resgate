(* C04/C10: models of rescache.Access.CanGet (access.go:15-27) and wsConn.ExpandCID (wsConn.go:743-745,
   strings.Replace(rid, "{cid}", cid, -1)), and the token-reset filter of wsConn.TokenReset (748-751). *)
From Coq Require Import List Ascii Bool Arith.
Import ListNotations.

(* an access answer: an error (with its code abstracted to whether it is system.accessDenied), or a result *)
Inductive access := AErr (denied : bool) | AResult (get : bool) (call : list ascii).

Inductive verdict := Granted | Refused (is_answer_error : bool).

Definition can_get (a : access) : verdict :=
  match a with
  | AErr _ => Refused true          (* the service's (or the transport's) error is passed on *)
  | AResult true _ => Granted
  | AResult false _ => Refused false (* system.accessDenied *)
  end.

(* loadAccess stores the verdict only for an actual result or a system.accessDenied error (subscription.go:900-903) *)
Definition stored (a : access) : bool :=
  match a with AErr d => d | AResult _ _ => true end.

Theorem can_get_granted_iff : forall a, can_get a = Granted <-> exists call, a = AResult true call.
Proof.
  intros [d|g call]; cbn; split; intros H; try discriminate.
  - destruct H as [c H]; discriminate.
  - destruct g; [exists call; reflexivity|discriminate].
  - destruct H as [c H]. inversion H; subst. reflexivity.
Qed.

Theorem transient_errors_not_stored : forall a, stored a = false -> a = AErr false.
Proof. intros [[|]|g c]; cbn; intros H; try discriminate; reflexivity. Qed.

Definition placeholder : list ascii := ["{"; "c"; "i"; "d"; "}"]%char.

Fixpoint has_prefix (s p : list ascii) : option (list ascii) :=
  match p, s with
  | [], _ => Some s
  | c :: p', d :: s' => if Ascii.eqb c d then has_prefix s' p' else None
  | _ :: _, [] => None
  end.

(* strings.Replace(s, "{cid}", cid, -1): leftmost non-overlapping occurrences; fuel = length s + 1 *)
Fixpoint expand_fuel (fuel : nat) (s cid : list ascii) : list ascii :=
  match fuel with
  | O => s
  | S f =>
      match has_prefix s placeholder with
      | Some rest => cid ++ expand_fuel f rest cid
      | None => match s with [] => [] | c :: s' => c :: expand_fuel f s' cid end
      end
  end.
Definition expand (s cid : list ascii) : list ascii := expand_fuel (S (length s)) s cid.

Definition brace : ascii := "{"%char.

Theorem expand_no_brace : forall s cid, forallb (fun c => negb (Ascii.eqb c brace)) s = true -> expand s cid = s.
Proof.
  intros s cid. unfold expand. generalize (S (length s)). intros fuel. revert s.
  induction fuel as [|f IH]; intros s H; [reflexivity|].
  destruct s as [|c s']; [reflexivity|].
  cbn [forallb] in H. apply andb_prop in H as [Hc Hs].
  apply negb_true_iff in Hc.
  cbn [expand_fuel has_prefix placeholder].
  assert (E : Ascii.eqb "{" c = false) by (rewrite Ascii.eqb_sym; exact Hc).
  rewrite E. rewrite IH by exact Hs. reflexivity.
Qed.

(* the token-reset filter: a connection is affected iff it has a token id and that id is listed *)
Fixpoint leqb (a b : list ascii) : bool :=
  match a, b with
  | [], [] => true
  | x :: a', y :: b' => Ascii.eqb x y && leqb a' b'
  | _, _ => false
  end.
Definition token_reset_applies (tid : list ascii) (tids : list (list ascii)) : bool :=
  match tid with [] => false | _ => existsb (leqb tid) tids end.

Theorem token_reset_needs_tid : forall tids, token_reset_applies [] tids = false.
Proof. reflexivity. Qed.
