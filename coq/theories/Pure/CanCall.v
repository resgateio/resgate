(* C05: model of rescache.Access.CanCall's list scanner
   (server/rescache/access.go:30-61) and its specification for all strings. *)
From Coq Require Import List Ascii String Bool Arith Lia.
Import ListNotations.

Definition comma : ascii := ","%char.
Definition star : ascii := "*"%char.

Fixpoint leqb (a b : list ascii) : bool :=
  match a, b with
  | [], [] => true
  | x :: a', y :: b' => Ascii.eqb x y && leqb a' b'
  | _, _ => false
  end.
Lemma leqb_eq a b : leqb a b = true <-> a = b.
Proof.
  revert b; induction a as [|x a IH]; intros [|y b]; cbn; split; intros H; try discriminate; try reflexivity.
  - apply andb_prop in H as [H1 H2]. apply Ascii.eqb_eq in H1. apply IH in H2. congruence.
  - inversion H; subst. rewrite Ascii.eqb_refl. cbn. apply IH. reflexivity.
Qed.

(* The Go loop walks i from len(s)-1 down to -1, e marks the end of the current entry.
   Structurally: walk the reversed string, accumulating the current entry. *)
Fixpoint scan (r seg act : list ascii) : bool :=
  match r with
  | [] => leqb seg act                                   (* i == -1 *)
  | c :: r' => if Ascii.eqb c comma
               then (if leqb seg act then true else scan r' [] act)   (* s[i] == ',' *)
               else scan r' (c :: seg) act
  end.

Definition can_call (call act : list ascii) : bool :=
  if leqb call [star] then true
  else match call with [] => false | _ => scan (rev call) [] act end.

(* specification: the comma separated entries, left to right *)
Fixpoint split_c (l cur : list ascii) : list (list ascii) :=
  match l with
  | [] => [rev cur]
  | c :: l' => if Ascii.eqb c comma then rev cur :: split_c l' [] else split_c l' (c :: cur)
  end.
Definition entries (l : list ascii) := split_c l [].

Definition comma_free (l : list ascii) := forallb (fun c => negb (Ascii.eqb c comma)) l = true.

Lemma split_free : forall seg cur, comma_free seg -> split_c seg cur = [rev cur ++ seg].
Proof.
  induction seg as [|c seg IH]; intros cur H; cbn.
  - rewrite app_nil_r. reflexivity.
  - unfold comma_free in H. cbn in H. apply andb_prop in H as [Hc Hs].
    apply negb_true_iff in Hc. rewrite Hc. rewrite IH by exact Hs. cbn. rewrite <- app_assoc. reflexivity.
Qed.

Lemma split_app_comma : forall l cur seg, comma_free seg ->
  split_c (l ++ comma :: seg) cur = split_c l cur ++ [seg].
Proof.
  induction l as [|c l IH]; intros cur seg H; cbn.
  - rewrite (split_free seg [] H). reflexivity.
  - destruct (Ascii.eqb c comma); cbn; rewrite IH by exact H; reflexivity.
Qed.

(* r is what the loop has still to walk (reversed), seg the entry it is in *)
Lemma scan_spec : forall r seg act, comma_free seg ->
  scan r seg act = existsb (fun e => leqb e act) (entries (rev r ++ seg)).
Proof.
  induction r as [|c r IH]; intros seg act Hf; cbn [rev scan app]; unfold entries.
  - rewrite (split_free seg [] Hf). cbn. rewrite orb_false_r. reflexivity.
  - rewrite <- app_assoc. cbn [app]. destruct (Ascii.eqb c comma) eqn:Ec.
    + apply Ascii.eqb_eq in Ec. subst c.
      rewrite (split_app_comma _ [] seg Hf), existsb_app, (IH [] act eq_refl), app_nil_r. cbn.
      rewrite orb_false_r, orb_comm. destruct (leqb seg act); reflexivity.
    + apply IH. unfold comma_free in *. cbn. rewrite Ec. exact Hf.
Qed.

(* C05: granted iff the list is exactly "*" or the method is an exact entry of a non-empty list *)
Theorem can_call_spec : forall call act,
  can_call call act = true <-> call = [star] \/ (call <> [] /\ In act (entries call)).
Proof.
  intros call act. unfold can_call.
  destruct (leqb call [star]) eqn:Es.
  - apply leqb_eq in Es. split; auto.
  - assert (Hns : call <> [star]) by (intros E; apply leqb_eq in E; congruence).
    destruct call as [|c call].
    + split; [discriminate|]. intros [H|[H _]]; [discriminate|congruence].
    + rewrite (scan_spec _ [] act eq_refl), rev_involutive, app_nil_r, existsb_exists. split.
      * intros (e & Hin & He). apply leqb_eq in He. subst. right. split; [discriminate|exact Hin].
      * intros [H|[_ Hin]]; [congruence|]. exists act. split; [exact Hin|]. apply leqb_eq. reflexivity.
Qed.
Print Assumptions can_call_spec.

(* non-vacuity and the boundary cases named in the property *)
Definition s2l (s : string) := list_ascii_of_string s.
Example ex1 : can_call (s2l "set,foo,bar") (s2l "foo") = true. Proof. reflexivity. Qed.
Example ex2 : can_call (s2l "set,foobar") (s2l "foo") = false. Proof. reflexivity. Qed.   (* prefix *)
Example ex3 : can_call (s2l "xfoo,bar") (s2l "foo") = false. Proof. reflexivity. Qed.     (* suffix *)
Example ex4 : can_call (s2l "") (s2l "foo") = false. Proof. reflexivity. Qed.
Example ex5 : can_call (s2l "*") (s2l "anything") = true. Proof. reflexivity. Qed.
Example ex6 : can_call (s2l "a,*") (s2l "b") = false. Proof. reflexivity. Qed.            (* star only alone *)
