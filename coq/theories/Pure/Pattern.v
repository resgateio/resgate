(* C12: model of rescache.ResourcePattern.Match
   (server/rescache/resourcePattern.go:55-103) and its token-level specification. *)
From Coq Require Import List Ascii Bool Arith Lia.
From RG Require Pure.CanCall.
Import ListNotations.

Definition dot : ascii := "."%char.
Definition star : ascii := "*"%char.
Definition gt : ascii := ">"%char.
Definition is (c d : ascii) : bool := Ascii.eqb c d.

Fixpoint leqb (a b : list ascii) : bool :=
  match a, b with
  | [], [] => true
  | x :: a', y :: b' => Ascii.eqb x y && leqb a' b'
  | _, _ => false
  end.

(* the inner loop of case '*': advance si to the next '.' (or to the end) *)
Fixpoint skip_tok (s : list ascii) : list ascii :=
  match s with [] => [] | c :: s' => if is c dot then s else skip_tok s' end.

(* the main loop; p and s are the suffixes pattern[pi:] and s[si:] *)
Fixpoint mt (fuel : nat) (p s : list ascii) : bool :=
  match fuel with
  | O => false
  | S f =>
    match p, s with
    | [], _ => false
    | _, [] => false
    | c :: p1, d :: s1 =>
      if is c gt then true
      else if is c star then
        match skip_tok s with
        | [] => match p1 with [] => true | _ => false end
        | _ :: s2 =>
            match s2 with
            | [] => match p1 with [_] => true | _ => false end
            | _ => match p1 with [] | [_] => false | _ :: p2 => mt f p2 s2 end
            end
        end
      else if negb (is c d) then false
      else match s1 with
           | [] => match p1 with [] => true | _ => false end
           | _ => match p1 with [] => false | _ => mt f p1 s1 end
           end
    end
  end.

Definition pmatch (p s : list ascii) : bool :=
  if (length s <? length p)%nat then false else mt (S (length s)) p s.

Fixpoint join (ts : list (list ascii)) : list ascii :=
  match ts with
  | [] => []
  | [t] => t
  | t :: ts' => t ++ dot :: join ts'
  end.

Fixpoint spec (pt st : list (list ascii)) : bool :=
  match pt with
  | [] => match st with [] => true | _ => false end
  | t :: pt' =>
      if leqb t [gt] then (match st with [] => false | _ => true end)
      else match st with
           | [] => false
           | u :: st' => (leqb t [star] || leqb t u) && spec pt' st'
           end
  end.

Definition nodot (t : list ascii) := forallb (fun c => negb (is c dot)) t = true.
Definition name_tok (t : list ascii) := t <> [] /\ nodot t.
Definition lit_tok (t : list ascii) :=
  t <> [] /\ forallb (fun c => negb (is c dot) && negb (is c star) && negb (is c gt)) t = true.
Definition pat_tok (t : list ascii) := t = [star] \/ lit_tok t.
(* '>' only as the last token *)
Fixpoint valid_pat (pt : list (list ascii)) : Prop :=
  match pt with
  | [] => True
  | [t] => t = [gt] \/ pat_tok t
  | t :: pt' => pat_tok t /\ valid_pat pt'
  end.

Lemma leqb_eq a b : leqb a b = true <-> a = b.
Proof. exact (CanCall.leqb_eq a b). Qed.
Lemma leqb_refl a : leqb a a = true. Proof. apply leqb_eq. reflexivity. Qed.

Lemma skip_len s : (length (skip_tok s) <= length s)%nat.
Proof. induction s as [|c s IH]; cbn; [lia|]. destruct (is c dot); cbn; lia. Qed.

Lemma mt_fuel : forall f1 f2 p s, (length s < f1)%nat -> (length s < f2)%nat -> mt f1 p s = mt f2 p s.
Proof.
  induction f1 as [|f1 IH]; intros f2 p s H1 H2; [lia|].
  destruct f2 as [|f2]; [lia|].
  cbn [mt]. destruct p as [|c p1]; [reflexivity|]. destruct s as [|d s1]; [reflexivity|].
  destruct (is c gt); [reflexivity|].
  destruct (is c star).
  - pose proof (skip_len (d :: s1)) as Hs.
    destruct (skip_tok (d :: s1)) as [|x s2]; [reflexivity|].
    destruct s2 as [|y s2']; [reflexivity|].
    destruct p1 as [|z [|z2 p2]]; try reflexivity.
    apply IH; cbn in *; lia.
  - destruct (negb (is c d)); [reflexivity|].
    destruct s1 as [|y s1']; [reflexivity|].
    destruct p1 as [|z p1']; [reflexivity|].
    apply IH; cbn in *; lia.
Qed.

Definition M (p s : list ascii) : bool := mt (S (length s)) p s.

(* Each branch of the loop, before it goes round again, checks whether pattern and name have run out, and
   answers at once if either has. G is M with that check in front: the branches then read G on the rests. *)
Definition G (p s : list ascii) : bool :=
  match p, s with
  | [], [] => true
  | [], _ | _, [] => false
  | _, _ => M p s
  end.

Lemma G_lit c p d s : is c gt = false -> is c star = false -> G (c :: p) (d :: s) = is c d && G p s.
Proof.
  intros Hg Hs. unfold G at 1, M. cbn [mt length]. rewrite Hg, Hs.
  destruct (is c d); [|reflexivity]. destruct s; destruct p; reflexivity.
Qed.

Lemma G_star p s : s <> [] ->
  G (star :: p) s =
  match skip_tok s with
  | [] => G p []
  | _ :: s2 => match p with [] => false | _ :: p2 => G p2 s2 end
  end.
Proof.
  intros Hne. destruct s as [|d s1]; [congruence|]. unfold G at 1, M. cbn [mt].
  change (is star gt) with false. change (is star star) with true. cbn iota.
  pose proof (skip_len (d :: s1)) as Hl.
  destruct (skip_tok (d :: s1)) as [|x [|y s2]]; destruct p as [|z [|z2 p2]]; try reflexivity.
  unfold M. apply mt_fuel; cbn in *; lia.
Qed.

(* what follows a token in a joined list *)
Definition P (pt : list (list ascii)) := match pt with [] => [] | _ => dot :: join pt end.
Definition dotstart (r : list ascii) : Prop := match r with [] => True | c :: _ => c = dot end.

Lemma P_dotstart ts : dotstart (P ts).
Proof. destruct ts; cbn; auto. Qed.

Lemma join_cons t ts : join (t :: ts) = t ++ P ts.
Proof. destruct ts; cbn; [rewrite app_nil_r|]; reflexivity. Qed.

Lemma join_name_nonempty st : Forall name_tok st -> st <> [] -> join st <> [].
Proof.
  intros H Hne. destruct st as [|u st']; [congruence|]. rewrite join_cons.
  inversion H as [|? ? [Hu _] _]; subst. destruct u; [congruence|discriminate].
Qed.

Lemma pat_tok_nonempty t : pat_tok t -> t <> [].
Proof. intros [->|[H _]]; [discriminate|exact H]. Qed.

Lemma valid_pat_tail t pt : valid_pat (t :: pt) -> pt <> [] -> pat_tok t /\ valid_pat pt.
Proof. destruct pt; [congruence|]. cbn. intros H _. exact H. Qed.

Lemma valid_pat_cases t pt :
  valid_pat (t :: pt) -> (t = [gt] /\ pt = []) \/ (pat_tok t /\ valid_pat pt).
Proof.
  destruct pt as [|t2 pt']; [|right; assumption].
  intros [H|H]; [left|right]; split; trivial. exact I.
Qed.

Lemma valid_pat_cons t pt : pat_tok t -> valid_pat pt -> valid_pat (t :: pt).
Proof. intros Ht Hv. destruct pt; [right|split]; assumption. Qed.

Lemma join_pat_nonempty pt : valid_pat pt -> pt <> [] -> join pt <> [].
Proof.
  intros H Hne. destruct pt as [|t pt']; [congruence|]. rewrite join_cons.
  destruct (valid_pat_cases _ _ H) as [[-> _]|[Ht _]]; [discriminate|].
  apply pat_tok_nonempty in Ht. destruct t; [congruence|discriminate].
Qed.

Lemma skip_nodot u r : nodot u -> skip_tok (u ++ r) = skip_tok r.
Proof.
  induction u as [|c u IH]; intros H; cbn [app]; [reflexivity|].
  unfold nodot in H. cbn in H. apply andb_prop in H as [Hc Hu]. apply negb_true_iff in Hc.
  cbn [skip_tok]. rewrite Hc. apply IH. exact Hu.
Qed.

Lemma spec_nil_r pt : spec pt [] = match pt with [] => true | _ => false end.
Proof. destruct pt as [|t pt']; cbn; [reflexivity|]. destruct (leqb t [gt]); reflexivity. Qed.

Definition litc (c : ascii) := negb (is c dot) && negb (is c star) && negb (is c gt).

Lemma litc_facts c : litc c = true -> is c dot = false /\ is c star = false /\ is c gt = false.
Proof.
  unfold litc. intros H. apply andb_prop in H as [H H3]. apply andb_prop in H as [H1 H2].
  apply negb_true_iff in H1, H2, H3. auto.
Qed.

Lemma lit_not_wild t : lit_tok t -> leqb t [gt] = false /\ leqb t [star] = false /\ forallb litc t = true.
Proof.
  intros [Hne Hl]. assert (Hl' : forallb litc t = true) by exact Hl.
  destruct t as [|c t]; [congruence|]. cbn in Hl'. apply andb_prop in Hl' as [Hc _].
  destruct (litc_facts c Hc) as (_ & Hs & Hg). unfold is in *. cbn [leqb]. rewrite Hs, Hg.
  repeat split; try reflexivity. exact Hl.
Qed.

Lemma G_dot p s : G (dot :: p) (dot :: s) = G p s.
Proof. apply (G_lit dot p dot s); reflexivity. Qed.

(* rp and rs are what follows the two tokens *)
Lemma G_tok_lit : forall t u rp rs,
  forallb litc t = true -> nodot u -> dotstart rp -> dotstart rs ->
  G (t ++ rp) (u ++ rs) = leqb t u && G rp rs.
Proof.
  induction t as [|c t IH]; intros [|d u] rp rs Hl Hu Hrp Hrs; cbn [app leqb].
  - reflexivity.
  - (* the pattern token ends first: a '.' meets a byte of the name token *)
    destruct rp as [|c q]; [reflexivity|]. cbn in Hrp. subst c.
    apply andb_prop in Hu as [Hd _]. apply negb_true_iff in Hd.
    rewrite G_lit by reflexivity. unfold is in *. rewrite Ascii.eqb_sym, Hd. reflexivity.
  - (* the name token ends first *)
    destruct rs as [|d q]; [reflexivity|]. cbn in Hrs. subst d.
    apply andb_prop in Hl as [Hc _]. destruct (litc_facts c Hc) as (Hd & Hs & Hg).
    rewrite G_lit, Hd by assumption. reflexivity.
  - cbn [forallb] in Hl. apply andb_prop in Hl as [Hc Hl]. destruct (litc_facts c Hc) as (_ & Hs & Hg).
    apply andb_prop in Hu as [_ Hu].
    rewrite G_lit, IH by assumption. apply andb_assoc.
Qed.

Lemma G_tok_star u rp rs :
  u <> [] -> nodot u -> dotstart rp -> dotstart rs -> G (star :: rp) (u ++ rs) = G rp rs.
Proof.
  intros Hne Hu Hrp Hrs.
  rewrite G_star, skip_nodot by (assumption || (destruct u; [congruence|discriminate])).
  destruct rs as [|d s2]; [reflexivity|]. cbn in Hrs. subst d. change (skip_tok (dot :: s2)) with (dot :: s2).
  destruct rp as [|c p2]; [reflexivity|]. cbn in Hrp. subst c. symmetry. apply G_dot.
Qed.

Theorem G_spec : forall pt st, valid_pat pt -> Forall name_tok st -> G (P pt) (P st) = spec pt st.
Proof.
  induction pt as [|t pt IH]; intros st Hvp Hst; [destruct st; reflexivity|].
  destruct st as [|u st]; [rewrite spec_nil_r; reflexivity|].
  inversion Hst as [|? ? [Hune Hund] Hst']; subst.
  cbn [P]. rewrite G_dot, !join_cons. cbn [spec].
  destruct (valid_pat_cases _ _ Hvp) as [[-> ->]|[[->|Hlit] Hvp']].
  - destruct u; [congruence|reflexivity].
  - cbn [app]. rewrite G_tok_star, IH by auto using P_dotstart. reflexivity.
  - destruct (lit_not_wild t Hlit) as (-> & -> & Hl).
    rewrite G_tok_lit, IH by auto using P_dotstart. reflexivity.
Qed.

Theorem M_spec : forall st pt,
  valid_pat pt -> Forall name_tok st -> pt <> [] -> st <> [] ->
  M (join pt) (join st) = spec pt st.
Proof.
  intros st pt Hvp Hst Hp Hs. rewrite <- (G_spec pt st Hvp Hst).
  pose proof (join_pat_nonempty pt Hvp Hp). pose proof (join_name_nonempty st Hst Hs).
  destruct pt as [|t pt]; [congruence|]. destruct st as [|u st]; [congruence|]. cbn [P]. rewrite G_dot.
  destruct (join (t :: pt)); [congruence|]. destruct (join (u :: st)); [congruence|]. reflexivity.
Qed.

Lemma spec_len : forall pt st, valid_pat pt -> Forall name_tok st -> spec pt st = true ->
  (length (P pt) <= length (P st))%nat.
Proof.
  induction pt as [|t pt IH]; intros st Hvp Hst Hs; [cbn; lia|].
  destruct st as [|u st]; [rewrite spec_nil_r in Hs; discriminate|].
  inversion Hst as [|? ? [Hune _] Hst']; subst.
  cbn [P length]. rewrite !join_cons, !app_length. cbn [spec] in Hs.
  assert (Hu : (1 <= length u)%nat) by (destruct u; [congruence|cbn; lia]).
  destruct (valid_pat_cases _ _ Hvp) as [[-> ->]|[Ht Hvp']]; [cbn; lia|].
  assert (Hng : leqb t [gt] = false) by (destruct Ht as [->|Hl]; [reflexivity|apply (lit_not_wild t Hl)]).
  rewrite Hng in Hs. apply andb_prop in Hs as [Htu Hs]. specialize (IH st Hvp' Hst' Hs).
  destruct Ht as [->|Hl]; [cbn [length]; lia|].
  destruct (lit_not_wild t Hl) as (_ & Hns & _). rewrite Hns in Htu. apply leqb_eq in Htu. subst u. lia.
Qed.

(* C12: for every valid pattern and valid resource name, Match is NATS wildcard matching on tokens *)
Theorem pmatch_spec : forall pt st,
  valid_pat pt -> Forall name_tok st -> pt <> [] -> st <> [] ->
  pmatch (join pt) (join st) = spec pt st.
Proof.
  intros pt st Hvp Hst Hp Hs. unfold pmatch.
  destruct (Nat.ltb_spec (length (join st)) (length (join pt))) as [Hlt|Hge].
  - destruct (spec pt st) eqn:E; [|reflexivity]. pose proof (spec_len pt st Hvp Hst E) as Hle.
    destruct pt; [congruence|]. destruct st; [congruence|]. cbn [P length] in Hle. lia.
  - apply M_spec; assumption.
Qed.
Print Assumptions pmatch_spec.

(* examples from the property text: * is exactly one token, > one or more trailing tokens *)
From Coq Require Import String.
Definition l (s : string) := list_ascii_of_string s.
Example e1 : pmatch (l "test.*") (l "test.model") = true. Proof. reflexivity. Qed.
Example e2 : pmatch (l "test.*") (l "test.model.sub") = false. Proof. reflexivity. Qed.
Example e3 : pmatch (l "test.>") (l "test.model.sub") = true. Proof. reflexivity. Qed.
Example e4 : pmatch (l "test.>") (l "test") = false. Proof. reflexivity. Qed.
Example e5 : pmatch (l "*.model.>") (l "test.model.a.b") = true. Proof. reflexivity. Qed.
(* the raw loop would accept a malformed pattern such as "te*"; ParseResourcePattern rejects those first,
   which is why the theorem is stated for valid_pat (and why parse gets its own theorem) *)
Example e6 : pmatch (l "te*") (l "test") = true. Proof. reflexivity. Qed.
