(* C14: model of codec.IsValidRID (server/codec/codec.go:786-809), byte level,
   and the statement that an accepted rid yields a clean NATS subject part. *)
From Coq Require Import List Ascii NArith Bool Arith Lia.
Import ListNotations.

Definition is (c d : ascii) : bool := Ascii.eqb c d.
Definition dot : ascii := "."%char.
Definition qm : ascii := "?"%char.
Definition star : ascii := "*"%char.
Definition gt : ascii := ">"%char.

(* r < 33 || r > 126 || r == '*' || r == '>'   (bytes >= 0x80 decode to runes > 126) *)
Definition bad (c : ascii) : bool :=
  let n := N_of_ascii c in (n <? 33)%N || (126 <? n)%N || is c star || is c gt.

Fixpoint vrid (l : list ascii) (allowQuery start : bool) : bool :=
  match l with
  | [] => negb start
  | c :: l' =>
      if is c qm then allowQuery && negb start
      else if bad c then false
      else if is c dot then (if start then false else vrid l' allowQuery true)
      else vrid l' allowQuery false
  end.
Definition is_valid_rid (l : list ascii) (allowQuery : bool) : bool := vrid l allowQuery true.

(* parseRID: the resource name is everything before the first '?' *)
Fixpoint name_of (l : list ascii) : list ascii :=
  match l with [] => [] | c :: l' => if is c qm then [] else c :: name_of l' end.

(* specification: a clean subject part *)
Definition okc (c : ascii) : bool :=
  let n := N_of_ascii c in (33 <=? n)%N && (n <=? 126)%N && negb (is c star) && negb (is c gt) && negb (is c qm) && negb (is c dot).
Fixpoint split_dot (l cur : list ascii) : list (list ascii) :=
  match l with
  | [] => [rev cur]
  | c :: l' => if is c dot then rev cur :: split_dot l' [] else split_dot l' (c :: cur)
  end.
Definition tok_ok (t : list ascii) : Prop := t <> [] /\ forallb okc t = true.
Definition clean (name : list ascii) : Prop := Forall tok_ok (split_dot name []).

Lemma okc_of c : is c qm = false -> bad c = false -> is c dot = false -> okc c = true.
Proof.
  unfold bad, okc. intros Hq Hb Hd. apply orb_false_iff in Hb as [Hb Hg]. apply orb_false_iff in Hb as [Hb Hs].
  apply orb_false_iff in Hb as [H1 H2]. apply N.ltb_ge in H1. apply N.ltb_ge in H2.
  rewrite Hq, Hd, Hs, Hg. cbn [negb]. rewrite !andb_true_r.
  apply andb_true_intro; split; apply N.leb_le; assumption.
Qed.

(* a token is closed with its bytes accumulated in reverse *)
Lemma tok_ok_rev x cur : forallb okc (x :: cur) = true -> tok_ok (rev (x :: cur)).
Proof.
  intros H. split.
  - cbn [rev]. destruct (rev cur); discriminate.
  - rewrite forallb_forall in *. intros y Hy. apply H, in_rev, Hy.
Qed.

Lemma vrid_clean : forall l aq cur,
  forallb okc cur = true ->
  vrid l aq (match cur with [] => true | _ => false end) = true ->
  Forall tok_ok (split_dot (name_of l) cur).
Proof.
  induction l as [|c l IH]; intros aq cur Hcur H; cbn [vrid name_of] in *.
  - destruct cur; [discriminate|]. constructor; [apply tok_ok_rev, Hcur|constructor].
  - destruct (is c qm) eqn:Eq.
    + apply andb_prop in H as [_ H]. destruct cur; [discriminate|].
      constructor; [apply tok_ok_rev, Hcur|constructor].
    + destruct (bad c) eqn:Eb; [discriminate|].
      cbn [split_dot]. destruct (is c dot) eqn:Ed.
      * destruct cur; [discriminate|]. constructor; [apply tok_ok_rev, Hcur|].
        apply (IH aq []); [reflexivity|exact H].
      * apply (IH aq (c :: cur)); [|exact H]. cbn [forallb]. rewrite (okc_of c Eq Eb Ed). exact Hcur.
Qed.

(* C14: every accepted resource id has a name that is a clean subject part:
   non-empty dot-separated tokens of printable non-space ASCII without * > ? *)
Theorem valid_rid_subject_clean : forall l aq, is_valid_rid l aq = true -> clean (name_of l).
Proof. intros l aq H. apply (vrid_clean l aq []); [reflexivity|exact H]. Qed.
Print Assumptions valid_rid_subject_clean.

From Coq Require Import String.
Definition s2l (s : string) := list_ascii_of_string s.
Example v1 : is_valid_rid (s2l "test.model?a=1&b=*") true = true. Proof. reflexivity. Qed.
Example v2 : is_valid_rid (s2l "test.model?a=1") false = false. Proof. reflexivity. Qed.
Example v3 : is_valid_rid (s2l "test..model") true = false. Proof. reflexivity. Qed.
Example v4 : is_valid_rid (s2l "test.*") true = false. Proof. reflexivity. Qed.
Example v5 : is_valid_rid (s2l "test.mo del") true = false. Proof. reflexivity. Qed.
Example v6 : is_valid_rid (s2l "?q") true = false. Proof. reflexivity. Qed.
Example v7 : name_of (s2l "test.model?a.b") = s2l "test.model". Proof. reflexivity. Qed.
