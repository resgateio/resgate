(* C12: model of rescache.lcs (server/rescache/resourceSubscription.go:542-651)
   and the theorem that its edit script, applied in order, turns a into b (up to Value.Equal),
   for an ARBITRARY table c (correctness does not depend on the DP being right). *)
From Coq Require Import List Arith ZArith Lia Bool.
Import ListNotations.
Open Scope Z_scope.

Section LCS.
Context {V : Type} (veq : V -> V -> bool).

Inductive event := Remove (idx : Z) | Add (idx : Z) (v : V).

Fixpoint remove_at (n : nat) (l : list V) : option (list V) :=
  match n, l with
  | O, _ :: t => Some t
  | S n', x :: t => option_map (cons x) (remove_at n' t)
  | _, [] => None
  end.
Fixpoint insert_at (n : nat) (v : V) (l : list V) : option (list V) :=
  match n, l with
  | O, _ => Some (v :: l)
  | S n', x :: t => option_map (cons x) (insert_at n' v t)
  | S _, [] => None
  end.
Definition apply_ev (e : event) (l : list V) : option (list V) :=
  match e with
  | Remove i => if i <? 0 then None else remove_at (Z.to_nat i) l
  | Add i v => if i <? 0 then None else insert_at (Z.to_nat i) v l
  end.
Fixpoint apply_evs (es : list event) (l : list V) : option (list V) :=
  match es with
  | [] => Some l
  | e :: es' => match apply_ev e l with Some l' => apply_evs es' l' | None => None end
  end.

Fixpoint cpre (a b : list V) : nat :=
  match a, b with
  | x :: a', y :: b' => if veq x y then S (cpre a' b') else O
  | _, _ => O
  end.

Definition eqat (aa bb : list V) (i j : nat) : bool :=
  match nth_error aa (i - 1), nth_error bb (j - 1) with
  | Some x, Some y => veq x y
  | _, _ => false
  end.

Section BT.
Variable c : nat -> nat -> nat.   (* c i j = c[i + w*j] *)
Variables aa bb : list V.

(* the Loop: of the Go code; (rems, adds, r) are its accumulators, idx its index variable *)
Fixpoint bt (fuel : nat) (i j : nat) (idx r : Z)
         (rems : list event) (adds : list (nat * Z * Z)) : list event * list (nat * Z * Z) * Z :=
  match fuel with
  | O => (rems, adds, r)
  | S f =>
    if (0 <? i)%nat && (0 <? j)%nat && eqat aa bb i j then
      bt f (i - 1)%nat (j - 1)%nat (idx - 1) r rems adds
    else if (0 <? j)%nat && ((i =? 0)%nat || (c (i - 1) j <=? c i (j - 1))%nat) then
      bt f i (j - 1)%nat idx r rems (adds ++ [((j - 1)%nat, idx, r)])
    else if (0 <? i)%nat && ((j =? 0)%nat || (c i (j - 1) <? c (i - 1) j)%nat) then
      bt f (i - 1)%nat j (idx - 1) (r + 1) (rems ++ [Remove (idx - 1)]) adds
    else (rems, adds, r)
  end.

(* "Do the adds": for i := l; i >= 0; i-- *)
Fixpoint emit_adds (k : Z) (l r : Z) (adds_rev : list (nat * Z * Z)) : list event :=
  match adds_rev with
  | [] => []
  | (n, idx, ar) :: rest =>
      match nth_error bb n with
      | Some v => Add (idx - r + ar + l - k) v :: emit_adds (k - 1) l r rest
      | None => emit_adds (k - 1) l r rest
      end
  end.
End BT.

Definition lcs_with (c : list V -> list V -> nat -> nat -> nat) (a b : list V) : list event :=
  let s := cpre a b in
  if ((s =? length a) && (s =? length b))%nat then [] else
  let a1 := skipn s a in let b1 := skipn s b in
  let t := cpre (rev a1) (rev b1) in
  let aa := firstn (length a1 - t) a1 in
  let bb := firstn (length b1 - t) b1 in
  let m := length aa in let n := length bb in
  let '(rems, adds, r) := bt (c aa bb) aa bb (m + n) m n (Z.of_nat (m + s)) 0 [] [] in
  let l := Z.of_nat (length adds) - 1 in
  rems ++ emit_adds bb l l r (rev adds).

(* one iteration of the Loop:, with what it reads: the element kept, the position removed from,
   or the positions in a and in b and the element of an add *)
Inductive step := SK (x : V) | SD (p : nat) | SI (p n : nat) (y : V).

Fixpoint nD (L : list step) : nat :=
  match L with [] => O | SD _ :: L' => S (nD L') | _ :: L' => nD L' end.

(* what the accumulators rems and adds of bt receive along L; s is the length of the untouched prefix *)
Fixpoint R (L : list step) (s : nat) : list event :=
  match L with
  | [] => []
  | SD p :: L' => Remove (Z.of_nat (p + s)) :: R L' s
  | _ :: L' => R L' s
  end.
Fixpoint A (L : list step) (s : nat) (r : Z) : list (nat * Z * Z) :=
  match L with
  | [] => []
  | SK _ :: L' => A L' s r
  | SD _ :: L' => A L' s (r + 1)
  | SI p n _ :: L' => (n, Z.of_nat (p + s), r) :: A L' s r
  end.

(* the adds the Go code finally emits, in emission order *)
Fixpoint addsF (L : list step) (s : nat) : list event :=
  match L with
  | [] => []
  | SI _ n y :: L' => addsF L' s ++ [Add (Z.of_nat (s + n)) y]
  | _ :: L' => addsF L' s
  end.

(* the list after the removes, and after the adds *)
Fixpoint kept (L : list step) : list V :=
  match L with [] => [] | SK x :: L' => kept L' ++ [x] | _ :: L' => kept L' end.
Fixpoint tgt (L : list step) : list V :=
  match L with
  | [] => []
  | SK x :: L' => tgt L' ++ [x]
  | SD _ :: L' => tgt L'
  | SI _ _ y :: L' => tgt L' ++ [y]
  end.

Section PROOF.
Variable c : nat -> nat -> nat.
Variables aa bb : list V.

(* L, in backtrack order, turns a1 into b1, a prefix of bb *)
Inductive bwd : list step -> list V -> list V -> Prop :=
| bwd_nil : bwd [] [] []
| bwd_K L a1 b1 x y : veq x y = true -> bwd L a1 b1 -> bwd (SK x :: L) (a1 ++ [x]) (b1 ++ [y])
| bwd_D L a1 b1 p x : length a1 = p -> bwd L a1 b1 -> bwd (SD p :: L) (a1 ++ [x]) b1
| bwd_I L a1 b1 p n y : length a1 = p -> length b1 = n -> nth_error bb n = Some y -> bwd L a1 b1 ->
    bwd (SI p n y :: L) a1 (b1 ++ [y]).

Lemma firstn_S_nth : forall (l : list V) i x, nth_error l i = Some x -> firstn (S i) l = firstn i l ++ [x].
Proof.
  induction l as [|h t IH]; intros [|i] x H; cbn in *; try discriminate.
  - inversion H; reflexivity.
  - f_equal. apply IH; assumption.
Qed.

Lemma idx_pred i s : Z.of_nat (S i + s) - 1 = Z.of_nat (i + s).
Proof. lia. Qed.

(* whatever the table says, the Loop: walks some alignment of the two prefixes down to (0,0) *)
Lemma bt_bwd : forall fuel i j,
  (i <= length aa)%nat -> (j <= length bb)%nat -> (i + j <= fuel)%nat ->
  exists L, bwd L (firstn i aa) (firstn j bb) /\
    forall s r rems adds, bt c aa bb fuel i j (Z.of_nat (i + s)) r rems adds
                          = (rems ++ R L s, adds ++ A L s r, r + Z.of_nat (nD L)).
Proof.
  induction fuel as [|f IH]; intros i j Hi Hj Hf.
  - apply Nat.le_0_r, Nat.eq_add_0 in Hf as [-> ->]. exists []. split; [constructor|].
    intros. cbn. rewrite !app_nil_r, Z.add_0_r. reflexivity.
  - cbn [bt].
    destruct ((0 <? i)%nat && (0 <? j)%nat && eqat aa bb i j) eqn:E1;
    [|destruct ((0 <? j)%nat && ((i =? 0)%nat || (c (i - 1) j <=? c i (j - 1))%nat)) eqn:E2;
    [|destruct ((0 <? i)%nat && ((j =? 0)%nat || (c i (j - 1) <? c (i - 1) j)%nat)) eqn:E3]].
    + (* equal elements: both indices step down *)
      apply andb_prop in E1 as [E1 Heq]. apply andb_prop in E1 as [Hi0 Hj0].
      destruct i as [|i]; [discriminate|]. destruct j as [|j]; [discriminate|].
      unfold eqat in Heq. cbn [Nat.sub] in *. rewrite !Nat.sub_0_r in *.
      destruct (nth_error aa i) as [x|] eqn:Ex; [|discriminate].
      destruct (nth_error bb j) as [y|] eqn:Ey; [|discriminate].
      destruct (IH i j (Nat.lt_le_incl _ _ Hi) (Nat.lt_le_incl _ _ Hj)) as (L & HL & Hbt); [lia|].
      exists (SK x :: L). split.
      { rewrite (firstn_S_nth _ _ _ Ex), (firstn_S_nth _ _ _ Ey). constructor; assumption. }
      intros. cbn [R A nD]. rewrite idx_pred. apply Hbt.
    + apply andb_prop in E2 as [Hj0 _]. destruct j as [|j]; [discriminate|].
      cbn [Nat.sub]. rewrite !Nat.sub_0_r.
      destruct (nth_error bb j) as [y|] eqn:Ey; [|destruct (proj2 (nth_error_Some bb j) Hj Ey)].
      destruct (IH i j Hi (Nat.lt_le_incl _ _ Hj)) as (L & HL & Hbt); [lia|].
      exists (SI i j y :: L). split.
      { rewrite (firstn_S_nth _ _ _ Ey).
        constructor; [apply firstn_length_le, Hi|apply firstn_length_le, Nat.lt_le_incl, Hj|assumption..]. }
      intros. cbn [R A nD]. rewrite Hbt, <- app_assoc. reflexivity.
    + apply andb_prop in E3 as [Hi0 _]. destruct i as [|i]; [discriminate|].
      cbn [Nat.sub]. rewrite !Nat.sub_0_r.
      destruct (nth_error aa i) as [x|] eqn:Ex; [|destruct (proj2 (nth_error_Some aa i) Hi Ex)].
      destruct (IH i j (Nat.lt_le_incl _ _ Hi) Hj (le_S_n _ _ Hf)) as (L & HL & Hbt).
      exists (SD i :: L). split.
      { rewrite (firstn_S_nth _ _ _ Ex). constructor; [apply firstn_length_le, Nat.lt_le_incl, Hi|assumption]. }
      intros. cbn [R A nD]. rewrite idx_pred, Hbt, <- app_assoc. f_equal. lia.
    + (* no branch applies only at (0,0): for i, j > 0 the two table tests are complementary *)
      assert (i = 0 /\ j = 0)%nat as [-> ->].
      { destruct i, j; cbn in E2, E3; try discriminate; [auto|].
        apply Nat.leb_gt in E2. apply Nat.ltb_ge in E3. lia. }
      exists []. split; [constructor|].
      intros. cbn. rewrite !app_nil_r, Z.add_0_r. reflexivity.
Qed.

(* a1 loses an element with every keep and remove still to come, b1 with every keep and add *)
Lemma bwd_counts L a1 b1 : bwd L a1 b1 -> forall s r,
  (length a1 + length (A L s r) = length b1 + nD L)%nat.
Proof.
  induction 1 as [|? ? ? ? ? _ _ IH|? ? ? ? ? _ _ IH|? ? ? ? ? ? _ _ _ _ IH]; intros s r;
    cbn [A nD length]; rewrite ?app_length; cbn [length];
    [reflexivity|specialize (IH s r)|specialize (IH s (r + 1))|specialize (IH s r)]; lia.
Qed.

Lemma emit_adds_app : forall xs ys k l r,
  emit_adds bb k l r (xs ++ ys) = emit_adds bb k l r xs ++ emit_adds bb (k - Z.of_nat (length xs)) l r ys.
Proof.
  induction xs as [|[[n idx] ar] xs IH]; intros; cbn [app emit_adds length].
  - f_equal. lia.
  - replace (k - Z.of_nat (S (length xs))) with (k - 1 - Z.of_nat (length xs)) by lia.
    destruct (nth_error bb n); cbn [app]; rewrite IH; reflexivity.
Qed.

(* the index arithmetic of "Do the adds" always lands on s + n, whatever l is *)
Lemma emit_spec L a1 b1 : bwd L a1 b1 -> forall s r l,
  emit_adds bb l l (r + Z.of_nat (nD L)) (rev (A L s r)) = addsF L s.
Proof.
  induction 1 as [|L a1 b1 x y _ _ IH|L a1 b1 p x _ _ IH|L a1 b1 p n y <- <- Hy HL IH]; intros s r l;
    cbn [A nD addsF rev].
  - reflexivity.
  - apply IH.
  - rewrite <- (IH s (r + 1) l). f_equal. lia.
  - rewrite emit_adds_app, IH, rev_length. cbn [emit_adds]. rewrite Hy.
    pose proof (bwd_counts _ _ _ HL s r). do 3 f_equal. lia.
Qed.

Lemma remove_at_app : forall (p : list V) x q, remove_at (length p) (p ++ x :: q) = Some (p ++ q).
Proof. induction p as [|h t IH]; intros; cbn; [reflexivity|]. rewrite IH. reflexivity. Qed.

Lemma insert_at_app : forall (p : list V) v q, insert_at (length p) v (p ++ q) = Some (p ++ v :: q).
Proof.
  induction p as [|h t IH]; intros; cbn.
  - destruct q; reflexivity.
  - rewrite IH. reflexivity.
Qed.

Lemma apply_remove_app (p : list V) x q : apply_ev (Remove (Z.of_nat (length p))) (p ++ x :: q) = Some (p ++ q).
Proof.
  unfold apply_ev. destruct (Z.ltb_spec (Z.of_nat (length p)) 0); [lia|]. rewrite Nat2Z.id. apply remove_at_app.
Qed.

Lemma apply_add_app (p : list V) v q : apply_ev (Add (Z.of_nat (length p)) v) (p ++ q) = Some (p ++ v :: q).
Proof.
  unfold apply_ev. destruct (Z.ltb_spec (Z.of_nat (length p)) 0); [lia|]. rewrite Nat2Z.id. apply insert_at_app.
Qed.

Lemma apply_evs_app : forall es1 es2 l l1,
  apply_evs es1 l = Some l1 -> apply_evs (es1 ++ es2) l = apply_evs es2 l1.
Proof.
  induction es1 as [|e es IH]; intros es2 l l1 H; cbn in *.
  - inversion H; reflexivity.
  - destruct (apply_ev e l) as [l'|]; [|discriminate]. eapply IH; eassumption.
Qed.

Lemma rem_ok L a1 b1 : bwd L a1 b1 -> forall pre rest,
  apply_evs (R L (length pre)) (pre ++ a1 ++ rest) = Some (pre ++ kept L ++ rest).
Proof.
  induction 1 as [|L a1 b1 x y _ _ IH|L a1 b1 p x <- _ IH|L a1 b1 p n y _ _ _ _ IH]; intros pre rest;
    cbn [R kept].
  - reflexivity.
  - rewrite <- !app_assoc. apply IH.
  - rewrite <- app_assoc. cbn [app apply_evs].
    rewrite app_assoc, Nat.add_comm, <- app_length, apply_remove_app, <- app_assoc. apply IH.
  - apply IH.
Qed.

(* [veq] (Value.Equal) is not assumed reflexive, and the elements the diff adds are those of b themselves: hence [x = y]. *)
Definition vrel (x y : V) : Prop := x = y \/ veq x y = true.

Lemma tgt_rel L a1 b1 : bwd L a1 b1 -> Forall2 vrel (tgt L) b1.
Proof.
  induction 1 as [|L a1 b1 x y E _ IH|L a1 b1 p x _ _ IH|L a1 b1 p n y _ _ _ _ IH]; cbn [tgt].
  - constructor.
  - apply Forall2_app; [assumption|]. constructor; [right; assumption|constructor].
  - assumption.
  - apply Forall2_app; [assumption|]. constructor; [left; reflexivity|constructor].
Qed.

Lemma tgt_length L a1 b1 : bwd L a1 b1 -> length (tgt L) = length b1.
Proof. induction 1; cbn [tgt]; rewrite ?app_length; cbn [length]; lia. Qed.

Lemma add_ok L a1 b1 : bwd L a1 b1 -> forall pre rest,
  apply_evs (addsF L (length pre)) (pre ++ kept L ++ rest) = Some (pre ++ tgt L ++ rest).
Proof.
  induction 1 as [|L a1 b1 x y _ _ IH|L a1 b1 p x _ _ IH|L a1 b1 p n y _ <- _ HL IH]; intros pre rest;
    cbn [addsF kept tgt].
  - reflexivity.
  - rewrite <- !app_assoc. apply IH.
  - apply IH.
  - rewrite (apply_evs_app _ _ _ _ (IH pre rest)). cbn [apply_evs].
    rewrite <- (tgt_length _ _ _ HL), <- app_length, app_assoc, apply_add_app, <- !app_assoc. reflexivity.
Qed.

(* core statement: the trimmed problem, embedded between an untouched prefix and suffix *)
Theorem core_patch : forall s pre rest, length pre = s ->
  let m := length aa in let n := length bb in
  exists mid, Forall2 vrel mid bb /\
    apply_evs (let '(rems, adds, r) := bt c aa bb (m + n) m n (Z.of_nat (m + s)) 0 [] [] in
               let l := Z.of_nat (length adds) - 1 in
               rems ++ emit_adds bb l l r (rev adds)) (pre ++ aa ++ rest) = Some (pre ++ mid ++ rest).
Proof.
  intros s pre rest <- m n.
  destruct (bt_bwd (m + n) m n) as (L & HL & Hbt); [lia..|].
  unfold m, n in HL. rewrite !firstn_all in HL. rewrite Hbt. cbn [app].
  exists (tgt L). split; [exact (tgt_rel _ _ _ HL)|].
  rewrite (apply_evs_app _ _ _ _ (rem_ok _ _ _ HL pre rest)), (emit_spec _ _ _ HL). apply (add_ok _ _ _ HL).
Qed.

End PROOF.

Lemma cpre_spec : forall a b,
  Forall2 vrel (firstn (cpre a b) a) (firstn (cpre a b) b) /\ (cpre a b <= length a)%nat.
Proof.
  induction a as [|x a IH]; intros [|y b]; cbn; try (split; [constructor|lia]).
  destruct (veq x y) eqn:E; cbn; [|split; [constructor|lia]].
  destruct (IH b) as [H1 H2]. split; [|lia]. constructor; [right|]; assumption.
Qed.

Lemma Forall2_rev' (R : V -> V -> Prop) : forall l1 l2, Forall2 R l1 l2 -> Forall2 R (rev l1) (rev l2).
Proof.
  induction 1; cbn; [constructor|]. apply Forall2_app; [assumption|]. constructor; [assumption|constructor].
Qed.

Theorem lcs_patch : forall (c : list V -> list V -> nat -> nat -> nat) (a b : list V),
  exists b', apply_evs (lcs_with c a b) a = Some b' /\ Forall2 vrel b' b.
Proof.
  intros c a b. unfold lcs_with.
  destruct (cpre_spec a b) as [Hpre Hsa]. set (s := cpre a b) in *.
  destruct ((s =? length a)%nat && (s =? length b)%nat) eqn:Eall.
  - apply andb_prop in Eall as [Ea Eb]. apply Nat.eqb_eq in Ea, Eb.
    exists a. split; [reflexivity|].
    rewrite <- (firstn_all a), <- (firstn_all b), <- Ea, <- Eb. exact Hpre.
  - set (a1 := skipn s a). set (b1 := skipn s b).
    destruct (cpre_spec (rev a1) (rev b1)) as [Hsuf _]. set (t := cpre (rev a1) (rev b1)) in *.
    rewrite !firstn_rev in Hsuf. apply Forall2_rev' in Hsuf. rewrite !rev_involutive in Hsuf.
    set (aa := firstn (length a1 - t) a1). set (bb := firstn (length b1 - t) b1).
    set (sa := skipn (length a1 - t) a1) in *. set (sb := skipn (length b1 - t) b1) in *.
    assert (Ha : firstn s a ++ aa ++ sa = a) by (unfold aa, sa; rewrite firstn_skipn; apply firstn_skipn).
    assert (Hb : firstn s b ++ bb ++ sb = b) by (unfold bb, sb; rewrite firstn_skipn; apply firstn_skipn).
    destruct (core_patch (c aa bb) aa bb s (firstn s a) sa) as (mid & Hmid & Happ);
      [apply firstn_length_le, Hsa|].
    exists (firstn s a ++ mid ++ sa). split.
    + rewrite Ha in Happ. exact Happ.
    + rewrite <- Hb. repeat apply Forall2_app; assumption.
Qed.

(* unchanged content yields no event *)
Theorem lcs_same_nil : forall c a b,
  Forall2 (fun x y => veq x y = true) a b -> lcs_with c a b = [].
Proof.
  intros c a b H. unfold lcs_with.
  assert (E : cpre a b = length a /\ length a = length b).
  { induction H as [|x y a b Hxy H IH]; cbn; [split; reflexivity|]. rewrite Hxy. destruct IH; split; lia. }
  destruct E as [E1 E2]. rewrite E1, <- E2, Nat.eqb_refl. reflexivity.
Qed.

End LCS.

Print Assumptions lcs_patch.
Print Assumptions lcs_same_nil.

(* non-vacuity / sanity: run the model on a concrete pair with an always-zero table *)
Definition zero_tab (_ _ : list nat) (_ _ : nat) : nat := 0%nat.
Eval vm_compute in lcs_with Nat.eqb zero_tab [1;2;3;4;2]%nat [1;3;2;5;2]%nat.
Eval vm_compute in apply_evs (lcs_with Nat.eqb zero_tab [1;2;3;4;2]%nat [1;3;2;5;2]%nat) [1;2;3;4;2]%nat.
